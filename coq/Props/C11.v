(* C11 -- whatever the parsers accept can be re-serialised to an equivalent message.
   Responses: proved for every accepted response, all three framings
   (C11_every_accepted_response_reserialises; for a chunked response the regenerated message is
   the Content-Length-framed equivalent carrying the de-chunked body).
   Requests: proved for every accepted request (any method the parser stores), relative to the
   per-target premise [uri_ok] about rhymuri (known findings K2, K3) and to the re-serialised
   lines fitting the limits (the property's own quantifier). *)
From Coq Require Import String.
From Http Require Import Proofs.FoldRoundTrip.
From Http Require Import Model.Bytes Model.Num Model.Headers Model.Request Model.Response
     Spec.HeaderGrammar Spec.RequestGrammar Spec.ResponseGrammar Proofs.BytesLemmas Proofs.RoundTrip Proofs.Reserialise.

Theorem C11_request_reserialise :
  forall (uri : Type) (uri_parse : bytes -> option uri) (uri_show : uri -> bytes)
         cfg x (st : req_state uri) c u,
    req_parse uri uri_parse cfg req_init x = (st, Complete c) -> r_target st = Some u ->
    uri_ok uri uri_parse uri_show u ->
    refits uri uri_show cfg (value_of uri st u) ->
    exists g st2,
      generate_request uri uri_show cfg (value_of uri st u) = Some g /\
      req_parse uri uri_parse cfg req_init g = (st2, Complete (length g)) /\
      value_of uri st2 u = value_of uri st u /\ r_target st2 = Some u.
Proof. exact request_reserialise. Qed.
Print Assumptions C11_request_reserialise.

(* every accepted request yields well-formed header values: legal names, legal values, trimmed *)
Theorem C11_parsed_headers_wellformed :
  forall lim fs, Forall (field_ok lim) fs -> Forall hdr_wf0 (map field_header fs).
Proof. exact parsed_fields_wf. Qed.
Print Assumptions C11_parsed_headers_wellformed.

(* responses: the parsed value of a Content-Length-framed or body-less response is well-formed
   (so it round-trips, next theorem); for a chunked response it is the rewritten header list *)
Theorem C11_accepted_response_value :
  forall x st c,
    resp_parse resp_init x = (st, Complete c) ->
    header_value (s_headers st) CONTENT_LENGTH <> None \/
    has_header_token (s_headers st) TRANSFER_ENCODING CHUNKED = false ->
    (exists hs0 tf pl, s_headers st = dechunk_headers hs0 tf pl /\ header_value hs0 CONTENT_LENGTH = None
                       /\ has_header_token hs0 TRANSFER_ENCODING CHUNKED = true) \/
    WfResponse (resp_value_of st).
Proof. exact accepted_response_is_wf. Qed.
Print Assumptions C11_accepted_response_value.

Theorem C11_response_reserialise :
  forall x st c,
    resp_parse resp_init x = (st, Complete c) ->
    WfResponse (resp_value_of st) ->
    exists st2,
      resp_parse resp_init (generate_response (resp_value_of st)) =
        (st2, Complete (length (generate_response (resp_value_of st)))) /\
      resp_value_of st2 = resp_value_of st.
Proof. exact response_reserialise. Qed.
Print Assumptions C11_response_reserialise.

(* every accepted response -- Content-Length, chunked or body-less -- is a well-formed value
   (legal names; printable, trimmed values; a single Content-Length equal to the body length
   when there is a body) and therefore re-serialises to a message that parses to the same value,
   the whole output consumed.  The size premise only excludes bodies longer than usize::MAX. *)
Theorem C11_accepted_response_wellformed :
  forall x st c,
    resp_parse resp_init x = (st, Complete c) ->
    (N.of_nat (length (s_body st)) <= USIZE_MAX)%N ->
    WfResponse (resp_value_of st).
Proof. exact accepted_response_value_wf. Qed.
Print Assumptions C11_accepted_response_wellformed.

Theorem C11_every_accepted_response_reserialises :
  forall x st c,
    resp_parse resp_init x = (st, Complete c) ->
    (N.of_nat (length (s_body st)) <= USIZE_MAX)%N ->
    exists st2,
      resp_parse resp_init (generate_response (resp_value_of st)) =
        (st2, Complete (length (generate_response (resp_value_of st)))) /\
      resp_value_of st2 = resp_value_of st.
Proof. exact every_accepted_response_reserialises. Qed.
Print Assumptions C11_every_accepted_response_reserialises.

(* the rewritten header list of a chunked response keeps well-formedness *)
Theorem C11_dechunked_headers_wellformed :
  forall hs tr body, Forall hdr_wf0 hs -> Forall hdr_wf0 tr -> Forall hdr_wf0 (dechunk_headers hs tr body).
Proof. exact dechunk_headers_wf. Qed.
Print Assumptions C11_dechunked_headers_wellformed.

(* non-vacuity: a chunked response re-serialises to the Content-Length-framed equivalent *)
Example C11_chunked_example :
  let x := str "HTTP/1.1 200 OK"%string ++ CRLF ++ str "Transfer-Encoding: gzip, chunked"%string ++ CRLF
           ++ str "Trailer: X"%string ++ CRLF ++ CRLF ++ str "3"%string ++ CRLF ++ str "abc"%string ++ CRLF
           ++ str "0"%string ++ CRLF ++ str "X: y"%string ++ CRLF ++ CRLF in
  match resp_parse resp_init x with
  | (st, Complete _) =>
      let g := generate_response (resp_value_of st) in
      match resp_parse resp_init g with
      | (st2, Complete c2) => c2 = length g /\ resp_value_of st2 = resp_value_of st
                              /\ s_body st2 = str "abc"%string
                              /\ s_headers st2 = [(str "Transfer-Encoding"%string, str "gzip"%string);
                                                  (str "X"%string, str "y"%string);
                                                  (str "Content-Length"%string, str "3"%string)]
      | _ => False
      end
  | _ => False
  end.
Proof. vm_compute. repeat split. Qed.

(* ---- known finding K6: the premise "every re-serialised header line fits the line limit" of
   C11_request_reserialise cannot be dropped.  The request below is accepted (its header line is exactly
   1000 bytes with its CRLF), yet Request::generate -- rhymessage's fold_header included, Model/Headers.v
   hdr_generate_full -- fails on the parsed value: written back as `X: vvv...` the line is one byte too long
   and has no place to split.  The same input replayed on the crate is the finding's witness. ---- *)
Definition k6_witness : bytes :=
  str "GET / HTTP/1.1"%string ++ CRLF ++ str "X:"%string ++ repeat 118%N 996 ++ CRLF ++ CRLF.

Theorem C11_unrestricted_request_reserialise_refuted :
  exists st c,
    req_parse bytes (fun b => Some b) default_cfg req_init k6_witness = (st, Complete c)
    /\ c = length k6_witness
    /\ req_generate_full default_cfg (r_method st) [47%N] (r_headers st) (r_body st) = GCannotFold.
Proof.
  (* The parser is run on the witness, but its answer is named rather than written out and the
     header value is left as [trim] of the 996 bytes: [trim] and the split search are quadratic
     under the kernel's reduction.  That the value trims to itself and that a line without white
     space past the name cannot be folded are lemmas. *)
  set (r := req_parse bytes (fun b => Some b) default_cfg req_init k6_witness).
  assert (E : snd r = Complete (length k6_witness)) by (vm_compute; reflexivity).
  assert (H : r_headers (fst r) = [([88%N], trim (repeat 118%N 996))]) by (lazy - [trim]; reflexivity).
  exists (fst r), (length k6_witness).
  split; [rewrite <- E; apply surjective_pairing|]. split; [reflexivity|].
  rewrite H, trim_repeat by reflexivity. unfold req_generate_full. cbn [hl default_cfg].
  rewrite hdr_generate_full_cannot_fold; [reflexivity|discriminate| |].
  - unfold header_line. cbn [fst snd]. rewrite !app_length, repeat_length. reflexivity.
  - cbn [snd]. intros b Hb. apply repeat_spec in Hb. subst b. reflexivity.
Qed.
Print Assumptions C11_unrestricted_request_reserialise_refuted.

(* what the folding generator does when the lines fit: exactly the unfolded generator's output *)
Example C11_generate_full_agrees_when_lines_fit :
  req_generate_full default_cfg (str "GET"%string) [47%N] [(str "Host"%string, str "a b"%string)] []
  = match req_generate default_cfg (str "GET"%string) [47%N] [(str "Host"%string, str "a b"%string)] [] with
    | Some b => GOk b | None => GCannotFold end.
Proof. vm_compute. reflexivity. Qed.

(* a fold at a tab: the piece after the split starts with the tab, which unfolding reads as a space *)
Example C11_fold_at_tab :
  hdr_generate_full (Some 12%N) [(str "A"%string, str "bcdef"%string ++ [HT] ++ str "ghij"%string)]
  = GOk (str "A: bcdef"%string ++ CRLF ++ [HT] ++ str "ghij"%string ++ CRLF ++ CRLF).
Proof. vm_compute. reflexivity. Qed.

(* ---- what does survive folding: headers whose values are graphic characters separated by single
   spaces ([tight]) are re-serialised by the folding generator -- whatever their length, however many
   continuation lines it takes -- into a header block of the grammar that parses back to exactly the
   same header list.  Together with the refutation above this pins known finding K6 down to values
   that cannot be split and to tabs / runs of white space at a split point. ---- *)
Theorem C11_folded_headers_parse_back :
  forall l hs b rest,
    (2 <= l)%N -> Forall tight_header hs -> hdr_generate_full (Some l) hs = GOk b ->
    hdr_parse (Some l) [] (b ++ rest) = HComplete hs (length b).
Proof. exact folded_block_parses_back. Qed.
Print Assumptions C11_folded_headers_parse_back.

Theorem C11_folded_block_is_grammatical :
  forall l hs b,
    (2 <= l)%N -> Forall tight_header hs -> hdr_generate_full (Some l) hs = GOk b ->
    exists fs, b = header_block fs /\ block_ok (Some l) fs /\ map field_header fs = hs.
Proof. exact folded_block_is_grammatical. Qed.
Print Assumptions C11_folded_block_is_grammatical.

(* non-vacuity: a value of three words under a limit that forces two folds *)
Example C11_folding_example :
  let h := (str "X"%string, str "aaaa bbbb cccc"%string) in
  tight_header h
  /\ hdr_generate_full (Some 11%N) [h]
     = GOk (str "X: aaaa"%string ++ CRLF ++ str " bbbb"%string ++ CRLF ++ str " cccc"%string ++ CRLF ++ CRLF)
  /\ hdr_parse (Some 11%N) [] (str "X: aaaa"%string ++ CRLF ++ str " bbbb"%string ++ CRLF ++ str " cccc"%string ++ CRLF ++ CRLF)
     = HComplete [h] 25.
Proof.
  split; [|split; vm_compute; reflexivity].
  split; [split; reflexivity|].
  vm_compute. repeat first [apply tight_one; reflexivity | apply tight_sp; [reflexivity|] | apply tight_cons; [reflexivity|]].
Qed.
