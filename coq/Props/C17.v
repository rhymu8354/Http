(* C17 -- length-determining numeric fields are accepted only in their RFC form. *)
From Coq Require Import String.
From Http Require Import Model.Bytes Model.Num Model.Headers Model.Request Model.Chunked
     Model.Response Spec.Delivery Proofs.Numeric.

(* the parsers used by the crate accept exactly 1*DIGIT / 1*HEXDIG (value fitting usize) *)
Theorem C17_decimal_exact :
  forall (s : bytes) (n : N),
    parse_dec s = Some n <-> (all_digits s /\ n = dec_value s /\ (n <= USIZE_MAX)%N).
Proof.
  intros s n. split.
  - exact (parse_dec_digits s n).
  - intros [D [-> L]]. exact (parse_dec_complete s D L).
Qed.
Print Assumptions C17_decimal_exact.

Theorem C17_hex_exact :
  forall (s : bytes) (n : N),
    parse_hex s = Some n <-> (all_hexdigits s /\ n = hex_value s /\ (n <= USIZE_MAX)%N).
Proof.
  intros s n. split.
  - exact (parse_hex_digits s n).
  - intros [D [-> L]]. exact (parse_hex_complete s D L).
Qed.
Print Assumptions C17_hex_exact.

(* Content-Length of an accepted request, under every delivery schedule and configuration *)
Theorem C17_request_content_length :
  forall (uri : Type) (uri_parse : bytes -> option uri) (cfg : rcfg) (ds : list bytes)
         (st : req_state uri) (tot : nat) (rest : bytes),
    feed _ (req_parse uri uri_parse cfg) req_init [] ds 0 = Done st tot rest ->
    forall t, header_value (r_headers st) CONTENT_LENGTH = Some t -> all_digits t.
Proof.
  intros uri uri_parse cfg ds st tot rest H.
  exact (request_cl_digits uri uri_parse cfg ds req_init [] 0 st tot rest I H).
Qed.
Print Assumptions C17_request_content_length.

(* status code: the text between the first two spaces of an accepted status line *)
Theorem C17_status_code :
  forall (line : bytes) (code : N) (reason : bytes),
    parse_status_line line = inl (code, reason) ->
    exists f, status_code_field line = Some f /\ all_digits f /\ code = dec_value f /\ (code < 1000)%N.
Proof. exact status_line_code_digits. Qed.
Print Assumptions C17_status_code.

(* chunk size: the text before ';' on every accepted chunk-size line *)
Theorem C17_chunk_size :
  forall (st : chunk_state) (buf : bytes) (st' : chunk_state) (c : nat),
    decode_size st buf = CPart st' c ->
    exists e, find_crlf buf = Some e /\ c = e + 2 /\ all_hexdigits (chunk_size_field (firstn e buf)).
Proof. exact decode_size_hexdigits. Qed.
Print Assumptions C17_chunk_size.

(* Content-Length of a response: whenever the header block completes with a Content-Length
   value, the call rejects or the value is 1*DIGIT *)
Theorem C17_response_content_length :
  forall (st : resp_state) (buf : bytes) (st1 : resp_state) (o : outcome) hs c,
    resp_headers st buf = (st1, o) ->
    hdr_parse None (s_headers st) buf = HComplete hs c ->
    match header_value hs CONTENT_LENGTH with
    | Some v => (exists k, o = Reject k) \/ all_digits v
    | None => True
    end.
Proof. exact resp_headers_cl. Qed.
Print Assumptions C17_response_content_length.

(* the difference to the standard-library parsers the code used before the fix: they accept,
   in addition, exactly one leading '+' *)
Theorem C17_std_parser_extra :
  forall (s : bytes) (n : N),
    parse_dec_rust s = Some n -> ~ all_digits s ->
    exists t, s = PLUS :: t /\ all_digits t /\ parse_dec t = Some n.
Proof. exact parse_dec_rust_extra. Qed.

Example C17_plus_refuted_by_fix :
  parse_dec_rust (str "+5"%string) = Some 5%N /\ parse_dec (str "+5"%string) = None
  /\ parse_hex (str "5"%string ++ [CR]) = None /\ parse_dec (str "18446744073709551616"%string) = None
  /\ parse_dec (str "18446744073709551615"%string) = Some 18446744073709551615%N.
Proof. vm_compute. repeat split. Qed.
