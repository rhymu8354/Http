(* C13 -- content decoding inverts every stack of gzip and deflate codings.
   First for any stream decoders, relative to three facts about them: each inverts its encoders;
   zlib-wrapped streams start with a valid zlib header, bare deflate streams produced by encoders
   do not.  Then with the model of flate2 (Model/Inflate.v) in their place, where the three facts
   are theorems; the model is tied to the library by the correspondence run. *)
From Coq Require Import String List NArith.
From Http Require Import Model.Bytes Model.Headers Model.Coding Model.Inflate Spec.DeflateStored
     Proofs.Rewrite Proofs.CodingGlue Proofs.InflateC15 Proofs.InflateStored Proofs.HuffmanCanon Proofs.HuffmanFixed Proofs.CopyMatch Proofs.HuffmanFixedLZ Proofs.HuffmanKraft Proofs.HuffmanGen Proofs.HuffmanDyn Proofs.InflateWf Proofs.DeflateStream.
Import ListNotations.

Theorem C13_decode_inverts_every_stack :
  forall (gunzip inflate_raw inflate_zlib : bytes -> option bytes)
         (enc : format -> bytes -> bytes -> Prop),
    (forall d e, enc Gz d e -> gunzip e = Some d) ->
    (forall d e, enc Zl d e -> inflate_zlib e = Some d /\ zlib_header e = true) ->
    (forall d e, enc Raw d e -> inflate_raw e = Some d /\ zlib_header e = false) ->
    forall (hs : list header) (fs : list format) (d e : bytes),
      Enc enc fs d e ->
      header_tokens hs CONTENT_ENCODING = map coding_token fs ->
      exists hs', decode_body gunzip inflate_raw inflate_zlib hs e = Some (hs', d).
Proof. exact decode_inverts_stack. Qed.
Print Assumptions C13_decode_inverts_every_stack.

(* spelling: tokens are compared after trimming and lower-casing, and may be spread over
   several Content-Encoding headers (any letter case of the header name) *)
Example C13_spelling :
  header_tokens [(str "content-ENCODING"%string, str " GZip ,"%string ++ [HT] ++ str "Deflate"%string);
                 (str "X"%string, str "gzip"%string);
                 (str "Content-Encoding"%string, str "deflate  "%string)] CONTENT_ENCODING
  = map coding_token [Gz; Zl; Raw].
Proof. vm_compute. reflexivity. Qed.

(* the zlib header test (RFC 1950): 78 9C is one, a typical bare stream is not *)
Example C13_sniff :
  zlib_header [120; 156; 75]%N = true /\ zlib_header [120; 1]%N = true /\
  zlib_header [75; 76; 74]%N = false /\ zlib_header [120]%N = false /\ zlib_header [120; 157]%N = false.
Proof. vm_compute. repeat split. Qed.

(* ---- with the model of flate2 (Model/Inflate.v) in place of the decoder parameters ----
   For the stored-block encoders of Spec/DeflateStored.v (DEFLATE "level 0": any partition of the data
   into blocks of at most 65535 bytes; bare, zlib with any valid header, gzip with any header the parser
   accepts) the three decoder facts above are theorems, so every stack of these encodings over every
   body is inverted, with no hypothesis left.  Huffman-coded blocks follow further down. *)
Theorem C13_stored_encoders_inverted :
  forall (hs : list header) (fs : list format) (d e : bytes),
    Enc stored_enc fs d e ->
    header_tokens hs CONTENT_ENCODING = map coding_token fs ->
    exists hs', decode_body gunzip_model inflate_raw_model inflate_zlib_model hs e = Some (hs', d).
Proof. exact decode_inverts_stored_stack. Qed.
Print Assumptions C13_stored_encoders_inverted.

Theorem C13_stored_gzip : forall d e, stored_gzip d e -> gunzip_model e = Some d.
Proof. exact gzip_stored_inverts. Qed.
Print Assumptions C13_stored_gzip.

Theorem C13_stored_zlib : forall d e, stored_zlib d e -> inflate_zlib_model e = Some d /\ zlib_header e = true.
Proof. exact zlib_stored_inverts. Qed.
Print Assumptions C13_stored_zlib.

Theorem C13_stored_raw : forall d e, stored_raw d e -> inflate_raw_model e = Some d /\ zlib_header e = false.
Proof. exact raw_stored_inverts. Qed.
Print Assumptions C13_stored_raw.

(* non-vacuity: "hi!" in two stored blocks, as a bare stream, then that stream inside a gzip member *)
Definition ex_raw : bytes := store_chunks [[104; 105]; [33]]%N.
Definition ex_gz : bytes := [31; 139; 8; 0; 0; 0; 0; 0; 0; 3]%N ++ store_chunks [ex_raw] ++ [164; 40; 185; 196; 13; 0; 0; 0]%N.
Example C13_stored_example : Enc stored_enc [Raw; Gz] [104; 105; 33]%N ex_gz.
Proof.
  apply (Enc_cons stored_enc Raw [Gz] [104; 105; 33]%N ex_raw ex_gz).
  - exists [[104; 105]; [33]]%N. split; [|split; reflexivity].
    repeat constructor; vm_compute; discriminate.
  - apply (Enc_cons stored_enc Gz [] ex_raw ex_gz ex_gz); [|apply Enc_nil].
    exists [ex_raw], [31; 139; 8; 0; 0; 0; 0; 0; 0; 3]%N, [164; 40; 185; 196; 13; 0; 0; 0]%N.
    split; [repeat constructor; vm_compute; discriminate|].
    split; [vm_compute; reflexivity|].
    split; [intros y; reflexivity|].
    split; [reflexivity|]. split; [vm_compute; reflexivity|]. split; [vm_compute; reflexivity|]. reflexivity.
Qed.

(* For EVERY list of code lengths: the canonical code (RFC 1951 3.2.2) of a symbol of length L, written
   most significant bit first, is decoded to that symbol by the model's one-bit-at-a-time decoder, and the
   input is left just behind the code.  The only premise is that the code fits its length, which holds
   whenever the lengths are not over-subscribed.  (bits_of: the bits an input state still presents.) *)
Theorem C13_canonical_code_decodes :
  forall (lens : list N) (sym L : nat) (s : istate) (t : list bool),
    1 <= L -> L <= 15 ->
    nth_error lens sym = Some (N.of_nat L) ->
    (code_value lens sym L < 2 ^ N.of_nat L)%N ->
    bits_of s = code_bits lens sym L ++ t ->
    exists s', dec_sym (mk_table lens) s = Ok sym s' /\ bits_of s' = t.
Proof. exact dec_sym_canonical. Qed.
Print Assumptions C13_canonical_code_decodes.

(* one final block in the fixed code carrying literals only (zlib: Z_FIXED, no matches), specified by its
   bits: any byte string whose bits, least significant first, are 1 1 0, the codes of the bytes, the code of
   end-of-block and fewer than 8 padding bits, decodes to those bytes *)
Theorem C13_fixed_literal_block_inverted :
  forall (e d : bytes) (pad : list bool),
    Forall (fun b => (b < 256)%N) d ->
    flat_map byte_bits e = [true; true; false] ++ lit_bits d ++ pad ->
    length pad < 8 ->
    inflate_raw_model e = Some d.
Proof. exact fixed_literal_block_inverts. Qed.
Print Assumptions C13_fixed_literal_block_inverted.

(* non-vacuity: what zlib (level 6, Z_FIXED) emits for "abc" is such a byte string *)
Example C13_fixed_block_example :
  exists pad, length pad < 8 /\
    flat_map byte_bits [75; 76; 74; 6; 0]%N = [true; true; false] ++ lit_bits [97; 98; 99]%N ++ pad.
Proof. exists [false; false; false; false; false; false]. split; [simpl; repeat constructor|]. vm_compute. reflexivity. Qed.

(* one final block in the fixed code with literals AND matches (zlib: Z_FIXED at any level), for ANY choice
   of matches: the symbols are literals and (length symbol, extra bits, distance symbol, extra bits); the
   decoder returns what RFC 1951's byte-at-a-time copy (copy_match; a match may overlap what it produces)
   assigns to the sequence.  The model's one-traversal copy is proved equal to that copy. *)
Theorem C13_fixed_block_inverted :
  forall (e : bytes) (xs : list fsym) (pad : list bool),
    Forall fsym_ok xs ->
    flat_map byte_bits e = [true; true; false] ++ block_bits xs ++ pad ->
    length pad < 8 ->
    inflate_raw_model e = Some (rev (fold_left fsym_apply xs [])).
Proof. exact fixed_block_inverts. Qed.
Print Assumptions C13_fixed_block_inverted.

Theorem C13_fast_copy_is_rfc_copy :
  forall len d out, copy_match_fast len d out = copy_match len d out.
Proof. exact copy_match_fast_is_rfc_copy. Qed.
Print Assumptions C13_fast_copy_is_rfc_copy.

(* non-vacuity: zlib (level 6, Z_FIXED) on "abcabcabcabc": four literals and one match of length 8 at
   distance 3, which overlaps itself *)
Example C13_fixed_block_lz_example :
  let xs := [FLit 97; FLit 98; FLit 99; FLit 97; FMatch 262 0 2 0]%N in
  Forall fsym_ok xs /\
  (exists pad, length pad < 8 /\
     flat_map byte_bits [75; 76; 74; 78; 132; 33; 0]%N = [true; true; false] ++ block_bits xs ++ pad) /\
  rev (fold_left fsym_apply xs []) = [97; 98; 99; 97; 98; 99; 97; 98; 99; 97; 98; 99]%N.
Proof.
  split; [|split].
  - repeat constructor; vm_compute; try reflexivity; repeat constructor.
  - eexists. split; [|vm_compute; reflexivity]. simpl. repeat constructor.
  - vm_compute. reflexivity.
Qed.

(* every table the decoder accepts (not over-subscribed) decodes the canonical code of each of its symbols:
   the Kraft bound gives "the code fits its length" *)
Theorem C13_accepted_table_decodes :
  forall (b : bool) (lens : list N) (sym L : nat) (s : istate) (t : list bool),
    table_ok b (mk_table lens) = true -> 1 <= L -> L <= 15 ->
    nth_error lens sym = Some (N.of_nat L) ->
    bits_of s = code_bits lens sym L ++ t ->
    exists s', dec_sym (mk_table lens) s = Ok sym s' /\ bits_of s' = t.
Proof. exact dec_sym_accepted_table. Qed.
Print Assumptions C13_accepted_table_decodes.

(* a final block with a DYNAMIC header, for any header an encoder may write (any HLIT / HDIST / HCLEN, any
   code-length code, any run-length coding of the lengths with the symbols 16, 17, 18), any pair of tables
   the decoder accepts, any literals and matches coded with them: specified by its bits, it decodes to RFC
   1951's copy semantics of its symbols.  This is what zlib emits at levels 1-9 for a body of one block. *)
Theorem C13_dynamic_block_inverted :
  forall (e : bytes) (h : dyn_header) (lens : list N) (xs : list fsym) (pad : list bool),
    header_ok h lens ->
    let litlens := firstn (d_hlit h) lens in
    let distlens := skipn (d_hlit h) lens in
    Forall (gsym_ok litlens distlens) xs -> has_code litlens 256 ->
    flat_map byte_bits e = [true; false; true] ++ header_bits h ++ gblock_bits litlens distlens xs ++ pad ->
    length pad < 8 ->
    inflate_raw_model e = Some (rev (fold_left fsym_apply xs [])).
Proof. exact dynamic_block_inverts. Qed.
Print Assumptions C13_dynamic_block_inverted.

(* ---- C13 in full, over the model of flate2: no hypothesis about the decoders is left ----
   A DEFLATE stream is ANY sequence of stored, fixed-code and dynamic-header blocks (Ser: the bits of the
   blocks in order; a stored block's LEN starts at a byte boundary after arbitrary padding bits; fewer than
   8 padding bits end the stream), with any symbols and any tables the decoder accepts (block_ok).  Its
   meaning is RFC 1951's: literals append a byte, a match copies byte by byte from `distance` back. *)
Theorem C13_deflate_stream_inverted :
  forall (e : bytes) (bs : list block),
    bytes_ok e -> Ser bs (flat_map byte_bits e) -> Forall block_ok bs ->
    inflate_fuel (fuel_for e) e = Ok (rev (fold_left block_apply bs [])) ([], []).
Proof. exact deflate_stream_inverts. Qed.
Print Assumptions C13_deflate_stream_inverted.

(* every stack of gzip (RFC 1952, any member header the parser accepts), zlib (RFC 1950, any valid header)
   and bare deflate codings, by ANY conforming encoder (any level, any block structure, any header
   options), over every body, is inverted by decode_body *)
Theorem C13_every_rfc_encoding_inverted :
  forall (hs : list header) (fs : list format) (d e : bytes),
    Enc rfc_enc fs d e ->
    header_tokens hs CONTENT_ENCODING = map coding_token fs ->
    exists hs', decode_body gunzip_model inflate_raw_model inflate_zlib_model hs e = Some (hs', d).
Proof. exact decode_inverts_every_rfc_stack. Qed.
Print Assumptions C13_every_rfc_encoding_inverted.

(* non-vacuity: zlib (Z_FIXED) on "abc" with a sync flush in the middle: a non-final fixed block, an empty
   non-final stored block behind 3 padding bits, a final empty fixed block and 6 padding bits *)
Example C13_three_block_stream :
  let e := [74; 76; 74; 6; 0; 0; 0; 255; 255; 3; 0]%N in
  let bs := [BFixed [FLit 97; FLit 98; FLit 99]; BStored []; BFixed []]%N in
  bytes_ok e /\ Forall block_ok bs /\ Ser bs (flat_map byte_bits e) /\
  rev (fold_left block_apply bs []) = [97; 98; 99]%N.
Proof.
  split; [repeat constructor|]. split.
  - repeat constructor; vm_compute; discriminate.
  - split; [|vm_compute; reflexivity].
    change (flat_map byte_bits [74; 76; 74; 6; 0; 0; 0; 255; 255; 3; 0]%N)
      with ([false] ++ huff_bits (BFixed [FLit 97; FLit 98; FLit 99]%N)
            ++ ([false; false; false] ++ [false; false; false] ++ flat_map byte_bits (stored_bytes [])
                ++ ([true] ++ huff_bits (BFixed []) ++ [false; false; false; false; false; false]))).
    apply Ser_huff; [reflexivity|]. apply Ser_stored; [simpl; repeat constructor | reflexivity |].
    apply Ser_last_huff; [reflexivity | simpl; repeat constructor].
Qed.
