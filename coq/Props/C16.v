(* C16 -- text decoding honours Content-Type and charset and never invents characters.
   encoding_rs is a parameter: [for_label] (label bytes -> encoding) and [enc_decode]
   (decode_without_bom_handling_and_without_replacement).  The two encodings the property
   singles out are modelled concretely ([utf8_decode], [w1252_decode]) and compared with
   encoding_rs byte for byte by the correspondence run. *)
From Coq Require Import String.
From Http Require Import Model.Bytes Model.Utf8 Model.Headers Model.Coding Proofs.TextDecode Proofs.CaseLemmas.

Theorem C16_text_only_for_text_types :
  forall (enc : Type) (for_label : bytes -> option enc) (enc_decode : enc -> bytes -> option (list N))
         (hs : list header) (body : bytes) (t : list N),
    decode_text enc for_label enc_decode hs body = Some t ->
    exists ct ty sub cs e,
      header_value hs CONTENT_TYPE = Some ct /\
      split_at SLASH (type_subtype ct) = Some (ty, sub) /\ eq_ignore_case ty TEXT = true /\
      cs = match find_charset (split_on SEMI (parameters ct)) with
           | Some c => c | None => ISO_8859_1 end /\
      for_label (utf8_encode cs) = Some e /\ enc_decode e body = Some t.
Proof. exact decode_text_some. Qed.
Print Assumptions C16_text_only_for_text_types.

Theorem C16_nothing_without_content_type :
  forall enc for_label enc_decode (hs : list header) (body : bytes),
    header_value hs CONTENT_TYPE = None -> decode_text enc for_label enc_decode hs body = None.
Proof. exact decode_text_none_without_type. Qed.
Print Assumptions C16_nothing_without_content_type.

Theorem C16_nothing_for_non_text :
  forall enc for_label enc_decode (hs : list header) (body ct : bytes),
    header_value hs CONTENT_TYPE = Some ct -> content_type_charset ct = None ->
    decode_text enc for_label enc_decode hs body = None.
Proof. exact decode_text_none_not_text. Qed.
Print Assumptions C16_nothing_for_non_text.

Theorem C16_nothing_for_unknown_charset :
  forall enc for_label enc_decode (hs : list header) (body ct cs : bytes),
    header_value hs CONTENT_TYPE = Some ct -> content_type_charset ct = Some cs ->
    for_label (utf8_encode cs) = None -> decode_text enc for_label enc_decode hs body = None.
Proof. exact decode_text_none_unknown_charset. Qed.
Print Assumptions C16_nothing_for_unknown_charset.

Theorem C16_utf8_exact :
  forall body : bytes,
    (utf8_valid body = true <-> exists t, utf8_decode body = Some t) /\
    (forall t, utf8_decode body = Some t -> utf8_encode t = body).
Proof. exact utf8_text_exact. Qed.
Print Assumptions C16_utf8_exact.

Theorem C16_iso_8859_1_total :
  forall body : bytes,
    length (w1252_decode body) = length body /\
    forall i b, nth_error body i = Some b -> (b < 128)%N -> nth_error (w1252_decode body) i = Some b.
Proof. exact w1252_total. Qed.
Print Assumptions C16_iso_8859_1_total.

(* type, parameter name: any letter case; first charset wins; odd spacing; defaults *)
Example C16_examples :
  content_type_charset (str "TeXt/html ;  ChArSeT=UTF-8; charset=latin1"%string) = Some (str "UTF-8"%string)
  /\ content_type_charset (str "text/plain"%string) = Some ISO_8859_1
  /\ content_type_charset (str "text"%string) = None
  /\ content_type_charset (str "application/json; charset=utf-8"%string) = None
  /\ content_type_charset (str "text/plain; charset"%string) = Some ISO_8859_1
  /\ utf8_decode [239; 187; 191; 97]%N = Some [65279; 97]%N
  /\ utf8_decode [192; 128]%N = None /\ utf8_decode [237; 160; 128]%N = None
  /\ w1252_decode [128; 65; 233]%N = [8364; 65; 233]%N.
Proof. vm_compute. repeat split. Qed.

(* ---- the charset label: case and surrounding whitespace do not matter, whatever the label table is
   (for_label = normalise, then look up: Model/Coding.v; tied to encoding_rs by asking the real table with
   the normalised label on every text case of the run) ---- *)
Theorem C16_label_matched_case_insensitively :
  forall l l', lower l = lower l' -> label_norm l = label_norm l'.
Proof. exact label_norm_ci. Qed.
Print Assumptions C16_label_matched_case_insensitively.

Theorem C16_label_normalisation_idempotent :
  forall l, label_norm (label_norm l) = label_norm l.
Proof. exact label_norm_idem. Qed.
Print Assumptions C16_label_normalisation_idempotent.

Example C16_label_examples :
  label_norm (str " UTF-8"%string ++ [9%N; 13%N]) = str "utf-8"%string
  /\ label_norm (str "Latin1"%string) = str "latin1"%string
  /\ label_norm (str "utf 8"%string) = str "utf 8"%string.
Proof. vm_compute. repeat split. Qed.

(* text decoding looks at Content-Type and at nothing else in the header list: two lists that give the same
   Content-Type value give the same text (a Content-Length, a Content-Encoding, an entity tag beside it are
   none of its business) *)
Theorem C16_only_content_type_matters :
  forall enc for_label enc_decode (hs hs' : list header) (body : bytes),
    header_value hs CONTENT_TYPE = header_value hs' CONTENT_TYPE ->
    decode_text enc for_label enc_decode hs body = decode_text enc for_label enc_decode hs' body.
Proof. intros enc fl ed hs hs' body H. unfold decode_text. rewrite H. reflexivity. Qed.
Print Assumptions C16_only_content_type_matters.
