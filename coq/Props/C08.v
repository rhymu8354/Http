(* C08 -- request size limits are enforced exactly, early, and cannot be bypassed. *)
From Coq Require Import String.
From Http Require Import Model.Bytes Model.Num Model.Headers Model.Request Spec.Delivery
     Proofs.ReqResume Proofs.Safety Proofs.Limits Proofs.LimitsNone Spec.ChunkedGrammar Spec.HeaderGrammar.

(* defaults (compared with Request::new() on every run) *)
Example C08_defaults :
  default_cfg = {| rl := Some 1000%N; hl := Some 1000%N; mm := Some 10000000%N |}.
Proof. reflexivity. Qed.

(* accepted only if the request line is within its limit ... *)
Theorem C08_accepted_request_line_within_limit :
  forall (uri : Type) (uri_parse : bytes -> option uri) cfg s (st : req_state uri) c,
    req_parse uri uri_parse cfg req_init s = (st, Complete c) ->
    exists e, find_crlf s = Some e /\ over_limit e (rl cfg) = false.
Proof. exact accepted_request_line_within_limit. Qed.
Print Assumptions C08_accepted_request_line_within_limit.

(* ... and the total (consumed bytes, with the declared body) is within the maximum; the
   running count is computed without wrap-around *)
Theorem C08_accepted_within_max :
  forall (uri : Type) (uri_parse : bytes -> option uri) cfg s (st : req_state uri) c m,
    req_parse uri uri_parse cfg req_init s = (st, Complete c) ->
    mm cfg = Some m -> (m < USIZE_MAX)%N ->
    (N.of_nat c <= r_total st)%N /\ (r_total st <= m)%N.
Proof. exact accepted_within_max. Qed.
Print Assumptions C08_accepted_within_max.

(* no bypass: whatever the declared length (up to 2^64-1), head + declared > max is rejected
   as MessageTooLong, never wrapped below the maximum *)
Theorem C08_declared_length_cannot_bypass :
  forall (uri : Type) cfg (st : req_state uri) buf hs c v n m,
    hdr_parse (hl cfg) (r_headers st) (strip_cr buf) = HComplete hs c ->
    header_value hs CONTENT_LENGTH = Some v -> parse_dec v = Some n ->
    mm cfg = Some m -> (m < USIZE_MAX)%N ->
    (m < r_total st + N.of_nat c + n)%N ->
    snd (req_headers uri cfg st buf) = Reject EMessageTooLong.
Proof. intros uri. exact (declared_length_counts uri). Qed.
Print Assumptions C08_declared_length_cannot_bypass.

(* early: under any delivery schedule, whenever the parser asks for more input, the bytes
   presented so far for the message (consumed + pending) are within the maximum *)
Theorem C08_need_more_only_within_max :
  forall (uri : Type) (uri_parse : bytes -> option uri) cfg (ds : list bytes)
         (st' : req_state uri) tot' pending' m,
    feed _ (req_parse uri uri_parse cfg) req_init [] ds 0 = NeedMore st' tot' pending' ->
    ds <> [] -> mm cfg = Some m -> (m < USIZE_MAX)%N ->
    (N.of_nat (tot' + length pending') <= m)%N.
Proof.
  intros uri uri_parse cfg ds st' tot' pending' m H.
  refine (need_more_within_max uri uri_parse cfg ds req_init [] 0 st' tot' pending' m _ H).
  unfold count_covers, sat_add. simpl. apply N.le_0_l.
Qed.
Print Assumptions C08_need_more_only_within_max.

(* None disables exactly that limit: a run that does not trip the request-line limit is
   unchanged by removing it (the other two limits keep acting) *)
Theorem C08_none_disables_only_request_line_limit :
  forall (uri : Type) (uri_parse : bytes -> option uri) cfg (st : req_state uri) buf,
    snd (req_dispatch uri uri_parse cfg st buf) <> Reject ERequestLineTooLong ->
    req_dispatch uri uri_parse (with_rl cfg None) st buf = req_dispatch uri uri_parse cfg st buf.
Proof. exact no_request_line_limit_dispatch. Qed.
Print Assumptions C08_none_disables_only_request_line_limit.

(* the same at the level of Request::parse, for each of the three limits: a call that is not
   answered with that limit's rejection gives the same answer and the same state without it.
   With None the limit can never be the reason of a rejection (over_limit _ None = false,
   count_bytes / presented_ok with no maximum always pass), so together: None disables exactly
   that limit and no other. *)
Theorem C08_none_request_line_limit :
  forall (uri : Type) (uri_parse : bytes -> option uri) cfg (st : req_state uri) buf,
    snd (req_parse uri uri_parse cfg st buf) <> Reject ERequestLineTooLong ->
    req_parse uri uri_parse (with_rl cfg None) st buf = req_parse uri uri_parse cfg st buf.
Proof. exact no_request_line_limit. Qed.
Print Assumptions C08_none_request_line_limit.

Theorem C08_none_header_line_limit :
  forall (uri : Type) (uri_parse : bytes -> option uri) cfg (st : req_state uri) buf,
    snd (req_parse uri uri_parse cfg st buf) <> Reject (EHeaders HTooLong) ->
    req_parse uri uri_parse (with_hl cfg None) st buf = req_parse uri uri_parse cfg st buf.
Proof. exact no_header_line_limit. Qed.
Print Assumptions C08_none_header_line_limit.

Theorem C08_none_max_message_size :
  forall (uri : Type) (uri_parse : bytes -> option uri) cfg (st : req_state uri) buf,
    snd (req_parse uri uri_parse cfg st buf) <> Reject EMessageTooLong ->
    req_parse uri uri_parse (with_mm cfg None) st buf = req_parse uri uri_parse cfg st buf.
Proof. exact no_max_message_size. Qed.
Print Assumptions C08_none_max_message_size.

(* exact in the other direction: a size rejection is issued only when that limit is really
   exceeded (corollaries of C03_rejection_names_first_defect) *)
Theorem C08_request_line_rejection_exact :
  forall (uri : Type) (uri_parse : bytes -> option uri) cfg s (st : req_state uri),
    req_parse uri uri_parse cfg req_init s = (st, Reject ERequestLineTooLong) ->
    exists n, rl cfg = Some n /\
      ((exists l rest, s = l ++ CRLF ++ rest /\ is_line l /\ (n < N.of_nat (length l))%N) \/
       (find_crlf s = None /\ (n < N.of_nat (length (strip_cr s)))%N)).
Proof. exact request_line_too_long_only_if_exceeded. Qed.
Print Assumptions C08_request_line_rejection_exact.

Theorem C08_header_line_rejection_exact :
  forall (uri : Type) (uri_parse : bytes -> option uri) cfg s (st : req_state uri),
    req_parse uri uri_parse cfg req_init s = (st, Reject (EHeaders HTooLong)) ->
    exists n k, hl cfg = Some n /\ (n < N.of_nat k)%N /\ k <= length s + 2.
Proof. exact header_line_too_long_only_if_exceeded. Qed.
Print Assumptions C08_header_line_rejection_exact.

Theorem C08_message_size_rejection_exact :
  forall (uri : Type) (uri_parse : bytes -> option uri) cfg s (st : req_state uri),
    req_parse uri uri_parse cfg req_init s = (st, Reject EMessageTooLong) ->
    exists m x, mm cfg = Some m /\ (m < x)%N /\
      ((x <= N.of_nat (length s))%N \/
       (exists l rest fs v n, s = l ++ CRLF ++ rest /\
          header_value (map field_header fs) CONTENT_LENGTH = Some v /\ parse_dec v = Some n /\
          x = N.min (N.of_nat (length l + 2 + length (header_block fs)) + n) USIZE_MAX)).
Proof. exact message_too_long_only_if_exceeded. Qed.
Print Assumptions C08_message_size_rejection_exact.

(* exactness at the boundary values, each limit at "exact" and "exact - 1" *)
Definition idp (b : bytes) : option bytes := Some b.
Definition reqx : bytes :=
  str "GET / HTTP/1.1"%string ++ CRLF ++ str "Host: abc"%string ++ CRLF ++ str "Content-Length: 3"%string ++ CRLF
  ++ CRLF ++ str "xyz"%string.            (* line 14; header lines 11 and 19 (with CRLF); head 48; total 51 *)
Definition verdict (cfg : rcfg) : outcome := snd (req_parse bytes idp cfg req_init reqx).
Example C08_exact_boundaries :
  verdict {| rl := Some 14; hl := Some 19; mm := Some 51 |}%N = Complete 51
  /\ verdict {| rl := Some 13; hl := Some 19; mm := Some 51 |}%N = Reject ERequestLineTooLong
  /\ verdict {| rl := Some 14; hl := Some 18; mm := Some 51 |}%N = Reject (EHeaders HTooLong)
  /\ verdict {| rl := Some 14; hl := Some 19; mm := Some 50 |}%N = Reject EMessageTooLong
  /\ verdict {| rl := None; hl := None; mm := None |} = Complete 51.
Proof. vm_compute. repeat split. Qed.

(* KNOWN FINDING K1 (rhymessage): a folded continuation line is not limited *)
Example C08_K1_continuation_line_not_limited :
  snd (req_parse bytes idp {| rl := Some 1000; hl := Some 11; mm := Some 10000000 |}%N req_init
         (str "GET / HTTP/1.1"%string ++ CRLF ++ str "A: b"%string ++ CRLF
          ++ str " ccccccccccccccccccc"%string ++ CRLF ++ CRLF)) = Complete 46.
Proof. vm_compute. reflexivity. Qed.
