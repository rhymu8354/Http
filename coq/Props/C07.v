(* C07 -- declared lengths cannot make the parser allocate out of proportion to input.
   PARTIAL by nature: the theorem bounds what the model asks Vec::reserve for and how much
   its own buffers grow per call; real allocator traffic (Vec doubling, error payloads, the
   dependencies' Strings) is measured by the counting allocator of the correspondence run. *)
From Coq Require Import String.
From Http Require Import Model.Bytes Model.Num Model.Request Model.Chunked Model.Response
     Proofs.ChunkResume Proofs.Safety.

(* request: the reservation made when the header block completes is at most the bytes
   presented to that call, whatever Content-Length says (0 .. 2^64-1) *)
Theorem C07_request_reserve_bounded :
  forall (uri : Type) cfg (st : req_state uri) (buf : bytes) (n : N),
    req_reserve uri cfg st buf = Some n -> (n <= N.of_nat (length buf))%N.
Proof. exact req_reserve_bounded. Qed.
Print Assumptions C07_request_reserve_bounded.

(* chunk decoder: every reservation of one decode call, for every chunk size *)
Theorem C07_chunk_reserves_bounded :
  forall (f : nat) (st : chunk_state) (buf : bytes),
    Forall (fun n => (n <= N.of_nat (length buf))%N) (chunk_reserves f st buf).
Proof. exact chunk_reserves_bounded. Qed.
Print Assumptions C07_chunk_reserves_bounded.

(* the request body buffer grows by at most the bytes presented in the call *)
Theorem C07_request_body_growth :
  forall (uri : Type) (uri_parse : bytes -> option uri) cfg (st : req_state uri) buf st1 o,
    body_inv uri st -> req_dispatch uri uri_parse cfg st buf = (st1, o) ->
    match o with
    | Reject _ => True
    | _ => body_inv uri st1 /\ length (r_body st1) <= length (r_body st) + length buf
    end.
Proof. exact req_dispatch_inv. Qed.
Print Assumptions C07_request_body_growth.

(* the chunk buffer grows by at most what the step consumed *)
Theorem C07_chunk_buffer_growth :
  forall (st : chunk_state) (buf : bytes),
    match chunk_step st buf with
    | CPart st' c | CWhole st' c | CInc st' c =>
        exists k, k <= c /\ length (c_buffer st') = length (c_buffer st) + k
    | CErr _ => True
    end.
Proof. exact chunk_step_buffer. Qed.
Print Assumptions C07_chunk_buffer_growth.

Example C07_example :
  req_reserve bytes default_cfg req_init
    (str "POST / HTTP/1.1"%string ++ CRLF ++ str "Content-Length: 9999999"%string ++ CRLF ++ CRLF ++ str "ab"%string)
  = Some 29%N
  /\ chunk_reserves 9 chunk_init (str "FFFFFFFF"%string ++ CRLF ++ str "x"%string) = [11%N].
Proof. vm_compute. split; reflexivity. Qed.
