(* C03 -- the request parser accepts exactly the request grammar and extracts it faithfully.
   Acceptance (sound, complete, unique), "proper prefixes need more input", timeliness and the
   rejection categories (first offending element, Spec/Rejections.v) are proved. *)
From Coq Require Import String.
From Http Require Import Model.Bytes Model.Utf8 Model.Num Model.Headers Model.Request
     Spec.HeaderGrammar Spec.ChunkedGrammar Spec.RequestGrammar
     Spec.Rejections Proofs.ReqGrammar Proofs.HeaderGrammarProofs Proofs.Timely
 Proofs.ReqRejects.

(* the grammar, pinned (Spec/RequestGrammar.v, Spec/HeaderGrammar.v) *)
Check (eq_refl : @request_line = fun meth tstr => meth ++ [SP] ++ tstr ++ [SP] ++ HTTP11).
Check (eq_refl : header_block = fun fs => flat_map field_bytes fs ++ CRLF).
Check (eq_refl : field_bytes = fun f => first_line f ++ CRLF ++ conts_bytes (f_conts f)).
Check (eq_refl : field_header = fun f => (f_name f, trim (unfolded (f_seg0 f) (f_conts f)))).

(* sound: whatever is reported complete is a request of the grammar, and the stored method,
   target, header list and body are exactly its elements; the boundary is right after them *)
Theorem C03_accept_sound :
  forall (uri : Type) (uri_parse : bytes -> option uri) cfg s (st : req_state uri) c,
    req_parse uri uri_parse cfg req_init s = (st, Complete c) ->
    exists u, r_target st = Some u /\
              IsRequest uri uri_parse cfg (firstn c s) (value_of uri st u).
Proof. exact req_parse_sound. Qed.
Print Assumptions C03_accept_sound.

(* complete: every request of the grammar is accepted, whatever follows it, with exactly its
   elements and the boundary at its end *)
Theorem C03_accept_complete :
  forall (uri : Type) (uri_parse : bytes -> option uri) cfg m (v : req_value uri) rest,
    IsRequest uri uri_parse cfg m v ->
    exists st, req_parse uri uri_parse cfg req_init (m ++ rest) = (st, Complete (length m)) /\
               value_of uri st (v_target v) = v /\ r_target st = Some (v_target v).
Proof. exact req_parse_complete. Qed.
Print Assumptions C03_accept_complete.

Theorem C03_grammar_unambiguous :
  forall (uri : Type) (uri_parse : bytes -> option uri) cfg m (v v' : req_value uri),
    IsRequest uri uri_parse cfg m v -> IsRequest uri uri_parse cfg m v' ->
    v_method v = v_method v' /\ v_headers v = v_headers v' /\ v_body v = v_body v'.
Proof. exact IsRequest_functional. Qed.
Print Assumptions C03_grammar_unambiguous.

(* a proper prefix of an acceptable request: more input, never a rejection *)
Theorem C03_prefix_needs_more :
  forall (uri : Type) (uri_parse : bytes -> option uri) cfg m (v : req_value uri) p t,
    IsRequest uri uri_parse cfg m v -> m = p ++ t -> t <> [] ->
    exists st c, req_parse uri uri_parse cfg req_init p = (st, Incomplete c).
Proof. exact request_prefix_needs_more. Qed.
Print Assumptions C03_prefix_needs_more.

(* timeliness: "more input" is only answered while the element being read is unfinished --
   no CRLF yet for the request line; the header block not yet complete; or declared body bytes
   still missing (then everything presented was consumed).  So once request line and header
   block are complete the answer is Complete, a rejection, or a wait for body bytes only. *)
Theorem C03_more_input_only_while_unfinished :
  forall (uri : Type) (uri_parse : bytes -> option uri) cfg s (st : req_state uri) c,
    req_parse uri uri_parse cfg req_init s = (st, Incomplete c) ->
    match r_phase st with
    | PRequestLine => find_crlf s = None /\ c = 0
    | PHeaders =>
        exists e hs k, find_crlf s = Some e /\ c = e + 2 + k /\
                       hdr_parse (hl cfg) [] (strip_cr (skipn (e + 2) s)) = HIncomplete hs k
    | PBody n => c = length s /\ (N.of_nat (length (r_body st)) < n)%N
    end.
Proof. exact request_incomplete_means_unfinished. Qed.
Print Assumptions C03_more_input_only_while_unfinished.

(* rejections: a fresh parser rejects an input with category e exactly when the input has a first
   offending element of that category (Spec/Rejections.v: request_defect -- unterminated or
   terminated request line too long; line not text; size exceeded; no method delimiter; empty
   method; no target delimiter; empty target; invalid URI; wrong protocol; then the first
   defective header line with its category; bad Content-Length; total or declared size over the
   maximum).  Every constructor of request_defect needs only the request line and header block
   (or less) to be present, so the rejection comes at the latest when they are complete. *)
Theorem C03_rejection_names_first_defect :
  forall (uri : Type) (uri_parse : bytes -> option uri) cfg s e,
    (exists st, req_parse uri uri_parse cfg req_init s = (st, Reject e)) <->
    request_defect uri uri_parse cfg s e.
Proof. exact request_reject_iff. Qed.
Print Assumptions C03_rejection_names_first_defect.

(* the same for the header block on its own: well-formed fields, then the first defective line *)
Theorem C03_header_rejection_names_first_defect :
  forall lim hs0 s e, hdr_parse lim hs0 s = HError e <-> block_defect lim s e.
Proof. exact hdr_parse_reject_iff. Qed.
Print Assumptions C03_header_rejection_names_first_defect.

(* the shape categories of the request line are exhaustive and exclusive with acceptance *)
Theorem C03_request_line_shape :
  forall (uri : Type) (uri_parse : bytes -> option uri) line e,
    parse_request_line uri uri_parse line = inr e <-> rshape_defect uri uri_parse line e.
Proof. exact parse_request_line_reject. Qed.
Print Assumptions C03_request_line_shape.

(* the header block alone: exactly the field grammar, with unfolding and trimming *)
Theorem C03_header_block_exact :
  forall lim hs0 s hs c,
    hdr_parse lim hs0 s = HComplete hs c <->
    exists fs, block_ok lim fs /\ firstn c s = header_block fs /\ hs = hs0 ++ map field_header fs
               /\ c = length (header_block fs).
Proof.
  intros lim hs0 s hs c. split.
  - intros H. destruct (hdr_parse_sound _ _ _ _ _ H) as [fs [H1 [H2 H3]]].
    exists fs. split; [exact H1|]. split; [exact H2|]. split; [exact H3|].
    pose proof (HeadersResume.hdr_parse_complete_tail _ _ _ _ _ H) as [_ [Hc _]].
    rewrite <- H2. rewrite firstn_length. symmetry. apply Nat.min_l. exact Hc.
  - intros [fs [H1 [H2 [H3 H4]]]].
    assert (Hs : s = header_block fs ++ skipn c s) by (rewrite <- H2; symmetry; apply firstn_skipn).
    rewrite Hs. subst hs c. apply hdr_parse_complete. exact H1.
Qed.
Print Assumptions C03_header_block_exact.

(* non-vacuity: a request with a folded header, a body and trailing bytes *)
Definition idp (b : bytes) : option bytes := Some b.
Example C03_example :
  let m := str "POST /x HTTP/1.1"%string ++ CRLF ++ str "A: b"%string ++ CRLF ++ str "  c "%string ++ CRLF
           ++ str "Content-Length: 2"%string ++ CRLF ++ CRLF ++ str "hi"%string in
  match req_parse bytes idp default_cfg req_init (m ++ str "GET"%string) with
  | (st, Complete c) => c = length m /\ r_headers st =
       [(str "A"%string, str "b c"%string); (str "Content-Length"%string, str "2"%string)]
       /\ r_body st = str "hi"%string
  | _ => False
  end.
Proof. vm_compute. repeat split. Qed.

(* non-vacuity of the rejection theorem: one defect per category, each derived from the declarative
   side through the theorem *)
Example C03_rejection_examples :
  let D := request_defect bytes idp default_cfg in
  D (str "GET  / HTTP/1.1"%string ++ CRLF) ERequestLineNoTargetOrExtraWhitespace /\
  D (str "GET / HTTP/1.0"%string ++ CRLF) ERequestLineProtocol /\
  D (str "GET / HTTP/1.1"%string ++ CRLF ++ str "A: b"%string ++ CRLF ++ str "Bad Name: x"%string ++ CRLF)
    (EHeaders HBadName) /\
  D (str "GET / HTTP/1.1"%string ++ CRLF ++ str "Content-Length: +5"%string ++ CRLF ++ CRLF) EInvalidContentLength /\
  D (str "GET / HTTP/1.1"%string ++ CRLF ++ str "Content-Length: 99999999"%string ++ CRLF ++ CRLF) EMessageTooLong.
Proof.
  cbv zeta. repeat split; apply C03_rejection_names_first_defect; eexists; vm_compute; reflexivity.
Qed.
