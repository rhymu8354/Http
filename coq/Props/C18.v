(* C18 -- letter case of header names and coding tokens never changes framing or decoding.
   Stated over header lists: [hdrs_ci hs hs'] = same length, names equal up to ASCII case,
   values equal up to ASCII case (so in particular any case pattern of Content-Length,
   Transfer-Encoding, Trailer, Content-Encoding, Content-Type and of the tokens chunked, gzip,
   deflate, text, charset), and -- C18_*_bytes below -- over the message bytes: any change of
   ASCII letter case inside the header block leaves verdict, boundary, start-line fields, body
   and trailing data unchanged and the stored header lists equal up to letter case (for chunked
   responses also when the letter case of the trailer section changes). *)
From Coq Require Import String.
From Http Require Import Model.Bytes Model.Utf8 Model.Num Model.Headers Model.Request Model.Response
     Model.Chunked Model.Coding Spec.ChunkedGrammar Proofs.CaseLemmas Proofs.CaseBytes Proofs.CaseEndToEnd Proofs.CaseTrailer.

(* every lookup the crate performs is blind to letter case *)
Theorem C18_lookups_ignore_case :
  forall (hs hs' : list header) (n n' tok tok' : bytes),
    hdrs_ci hs hs' -> ci_eq n n' -> ci_eq tok tok' ->
    header_tokens hs n = header_tokens hs' n' /\
    has_header_token hs n tok = has_header_token hs' n' tok' /\
    has_header hs n = has_header hs' n'.
Proof.
  intros hs hs' n n' tok tok' H Hn Ht. split; [|split].
  - exact (header_tokens_ci hs hs' n n' H Hn).
  - exact (has_header_token_ci hs hs' n n' tok tok' H Hn Ht).
  - exact (has_header_ci hs hs' n n' H Hn).
Qed.
Print Assumptions C18_lookups_ignore_case.

(* response framing (Content-Length value, else chunked token, else no body) *)
Theorem C18_response_framing_ignores_case :
  forall hs hs' : list header, hdrs_ci hs hs' -> resp_framing hs = resp_framing hs'.
Proof. exact resp_framing_ci. Qed.
Print Assumptions C18_response_framing_ignores_case.

(* the parser's framing decision is this function (so verdict, boundary and body follow) *)
Theorem C18_resp_headers_uses_framing :
  forall (st : resp_state) (buf : bytes) hs c,
    hdr_parse None (s_headers st) buf = HComplete hs c ->
    resp_headers st buf =
    let st1 := {| s_phase := SHeaders; s_code := s_code st; s_reason := s_reason st;
                  s_headers := hs; s_body := s_body st; s_trailer := s_trailer st |} in
    match resp_framing hs with
    | FFixed n => rshift c (resp_fixed st1 n (skipn c buf))
    | FBadLength => (st, Reject EInvalidContentLength)
    | FChunked => rshift c (resp_chunked st1 Chunked.chunk_init (skipn c buf))
    | FNone => (st1, Complete c)
    end.
Proof.
  intros st buf hs c H. unfold resp_headers, resp_framing. rewrite H. cbv zeta.
  destruct (header_value hs CONTENT_LENGTH) as [v|]; [destruct (parse_dec v); reflexivity|].
  destruct (has_header_token hs TRANSFER_ENCODING CHUNKED); reflexivity.
Qed.
Print Assumptions C18_resp_headers_uses_framing.

Theorem C18_request_framing_ignores_case :
  forall hs hs' : list header, hdrs_ci hs hs' -> req_framing hs = req_framing hs'.
Proof. exact req_framing_ci. Qed.
Print Assumptions C18_request_framing_ignores_case.

(* content decoding: same result body (or same failure) *)
Theorem C18_decode_body_ignores_case :
  forall (gunzip inflate_raw inflate_zlib : bytes -> option bytes) (hs hs' : list header) (body : bytes),
    hdrs_ci hs hs' ->
    option_map snd (decode_body gunzip inflate_raw inflate_zlib hs body) =
    option_map snd (decode_body gunzip inflate_raw inflate_zlib hs' body).
Proof. exact decode_body_ci. Qed.
Print Assumptions C18_decode_body_ignores_case.

(* text decoding: same text, given that encoding_rs matches labels case-insensitively *)
Theorem C18_decode_text_ignores_case :
  forall (enc : Type) (for_label : bytes -> option enc) (enc_decode : enc -> bytes -> option (list N)),
    (forall l l', ci_eq l l' -> for_label l = for_label l') ->
    forall (hs hs' : list header) (body : bytes),
      hdrs_ci hs hs' ->
      decode_text enc for_label enc_decode hs body = decode_text enc for_label enc_decode hs' body.
Proof. exact decode_text_ci. Qed.
Print Assumptions C18_decode_text_ignores_case.

(* the same without a hypothesis: encoding_rs's for_label as "normalise (trim ASCII whitespace, lower-case),
   then look up" (Model/Coding.v for_label_of; the driver asks the real table with the normalised label on
   every text case), for every table *)
Theorem C18_decode_text_ignores_case_any_table :
  forall (enc : Type) (lookup : bytes -> option enc) (enc_decode : enc -> bytes -> option (list N))
         (hs hs' : list header) (body : bytes),
    hdrs_ci hs hs' ->
    decode_text enc (for_label_of lookup) enc_decode hs body
    = decode_text enc (for_label_of lookup) enc_decode hs' body.
Proof. exact decode_text_ci_unconditional. Qed.
Print Assumptions C18_decode_text_ignores_case_any_table.

(* ---- at the level of bytes ---- *)
(* the header-block parser is transparent to letter case: same answer, same count, lists equal
   up to case *)
Theorem C18_header_block_parser_ignores_case :
  forall lim (hs0 hs0' : list header) (s s' : bytes),
    hdrs_ci hs0 hs0' -> ci_eq s s' -> hres_ci (hdr_parse lim hs0 s) (hdr_parse lim hs0' s').
Proof. exact hdr_parse_ci. Qed.
Print Assumptions C18_header_block_parser_ignores_case.

(* a response whose header block is [block], and the same bytes with any other letter case in
   the header block: same verdict and consumed count (so same boundary), same code, reason, body
   and trailing data, same parser phase; stored headers equal up to case (also after the
   de-chunking rewrite) *)
Theorem C18_response_bytes :
  forall (l block block' rest : bytes) (hs : list header),
    is_line l -> ci_eq block block' -> hdr_parse None [] block = HComplete hs (length block) ->
    let r := resp_parse resp_init (l ++ CRLF ++ block ++ rest) in
    let r' := resp_parse resp_init (l ++ CRLF ++ block' ++ rest) in
    snd r = snd r' /\ resp_st_ci (fst r) (fst r').
Proof. exact response_case_insensitive. Qed.
Print Assumptions C18_response_bytes.

Theorem C18_request_bytes :
  forall (uri : Type) (uri_parse : bytes -> option uri) cfg (l block block' rest : bytes) (hs : list header),
    is_line l -> ci_eq block block' -> hdr_parse (hl cfg) [] block = HComplete hs (length block) ->
    let r := req_parse uri uri_parse cfg req_init (l ++ CRLF ++ block ++ rest) in
    let r' := req_parse uri uri_parse cfg req_init (l ++ CRLF ++ block' ++ rest) in
    snd r = snd r' /\ req_st_ci uri (fst r) (fst r').
Proof. exact request_case_insensitive. Qed.
Print Assumptions C18_request_bytes.

Check (eq_refl : resp_st_ci = fun st st' =>
  s_phase st = s_phase st' /\ s_code st = s_code st' /\ s_reason st = s_reason st' /\
  hdrs_ci (s_headers st) (s_headers st') /\ s_body st = s_body st' /\ s_trailer st = s_trailer st').

Theorem C18_dechunk_rewrite_ignores_case :
  forall (hs hs' tr : list header) (body : bytes),
    hdrs_ci hs hs' -> hdrs_ci (dechunk_headers hs tr body) (dechunk_headers hs' tr body).
Proof. exact dechunk_headers_ci. Qed.
Print Assumptions C18_dechunk_rewrite_ignores_case.

(* chunked responses: letter case changed in the header block AND in the trailer section (field
   names such as Content-Length / Transfer-Encoding / Trailer that the rewrite filters, and any
   other field).  [chunked_variant wire wire']: wire is a well-formed chunked body and wire' the
   same bytes except for the letter case of the trailer section. *)
Check (CV_last : forall line block block' fields,
          size_line line 0 -> is_trailer block fields -> ci_eq block block' ->
          chunked_variant (line ++ CRLF ++ block) (line ++ CRLF ++ block')).
Theorem C18_chunked_response_bytes :
  forall (l block block' wire wire' rest : bytes) (hs : list header) code reason,
    is_line l -> utf8_valid l = true -> parse_status_line l = inl (code, reason) ->
    ci_eq block block' -> hdr_parse None [] block = HComplete hs (length block) ->
    header_value hs CONTENT_LENGTH = None -> has_header_token hs TRANSFER_ENCODING CHUNKED = true ->
    chunked_variant wire wire' ->
    exists st st' c,
      resp_parse resp_init (l ++ CRLF ++ block ++ wire ++ rest) = (st, Complete c) /\
      resp_parse resp_init (l ++ CRLF ++ block' ++ wire' ++ rest) = (st', Complete c) /\
      c = length (l ++ CRLF ++ block ++ wire) /\
      s_code st = s_code st' /\ s_reason st = s_reason st' /\ s_body st = s_body st' /\
      s_trailer st = s_trailer st' /\ hdrs_ci (s_headers st) (s_headers st').
Proof. exact chunked_response_case_insensitive. Qed.
Print Assumptions C18_chunked_response_bytes.

Example C18_bytes_example :
  let l := str "HTTP/1.1 200 OK"%string in
  let b := str "Transfer-Encoding: gzip, chunked"%string ++ CRLF ++ CRLF in
  let b' := str "TRANSFER-encoding: GZip, CHUNKED"%string ++ CRLF ++ CRLF in
  let rest := str "2"%string ++ CRLF ++ str "hi"%string ++ CRLF ++ str "0"%string ++ CRLF ++ CRLF ++ str "Z"%string in
  ci_eq b b' /\ is_line l /\
  snd (resp_parse resp_init (l ++ CRLF ++ b ++ rest)) = Complete (17 + 36 + 12) /\
  snd (resp_parse resp_init (l ++ CRLF ++ b' ++ rest)) = Complete (17 + 36 + 12).
Proof. vm_compute. repeat split. Qed.

Example C18_example :
  hdrs_ci [(str "content-LENGTH"%string, str "3"%string); (str "TRANSFER-encoding"%string, str "GZip, CHUNKED"%string)]
          [(str "Content-Length"%string, str "3"%string); (str "Transfer-Encoding"%string, str "gzip, chunked"%string)]
  /\ resp_framing [(str "transfer-ENCODING"%string, str "gzip, Chunked"%string)] = FChunked.
Proof. split; [repeat constructor|reflexivity]. Qed.
