(* C02 -- Response parsing is independent of how the bytes are delivered. *)
From Coq Require Import String.
From Http Require Import Model.Bytes Model.Request Model.Chunked Model.Response Spec.Delivery
     Proofs.FeedGeneric Proofs.RespResume Proofs.C02Response.

(* For every stream and every way of cutting it into a non-empty list of deliveries: both
   accept, with the same status code, reason phrase, final header list and body and the same
   boundary (bytes consumed minus bytes set aside as trailing data) -- [same_response];
   or both ask for more input with the same partial state, total consumed and pending bytes;
   or both reject.  Every framing: declared length, chunked (extensions, trailers), none. *)
Theorem C02_response_delivery_independent :
  forall ds : list bytes,
    ds <> [] ->
    feq resp_state same_response
        (feed _ resp_parse resp_init [] ds 0)
        (feed _ resp_parse resp_init [] [concat ds] 0).
Proof. exact response_delivery_independent. Qed.
Print Assumptions C02_response_delivery_independent.

Check same_response :
  resp_state -> nat -> resp_state -> nat -> Prop.
Check (eq_refl : same_response =
  fun s1 t1 s2 t2 =>
    s_code s1 = s_code s2 /\ s_reason s1 = s_reason s2 /\ s_headers s1 = s_headers s2 /\
    s_body s1 = s_body s2 /\ t1 + length (s_trailer s2) = t2 + length (s_trailer s1)).

(* the trailing data is exactly the delivered (consumed) bytes that follow the boundary,
   verbatim and in order, whatever the delivery schedule *)
Theorem C02_trailing_data_exact :
  forall (ds : list bytes) (st : resp_state) (tot : nat) (rest : bytes),
    feed _ resp_parse resp_init [] ds 0 = Done st tot rest ->
    let boundary := tot - length (s_trailer st) in
    length (s_trailer st) <= tot /\
    s_trailer st = skipn boundary (firstn tot (concat ds)).
Proof.
  intros ds st tot rest H. cbv zeta.
  destruct (feed_trailing_data ds resp_init [] 0 [] st tot rest rwf_init eq_refl eq_refl H)
    as [k [used [_ [Hk [Hu [Hl Ht]]]]]].
  cbn [app] in Hu. subst used.
  assert (Hlen : length (s_trailer st) = tot - k) by (rewrite Ht, skipn_length, Hl; reflexivity).
  split; [rewrite Hlen; apply Nat.le_sub_l|].
  rewrite Hlen. replace (tot - (tot - k)) with k; [exact Ht|].
  symmetry. apply Nat.add_sub_eq_l. apply Nat.sub_add. exact Hk.
Qed.
Print Assumptions C02_trailing_data_exact.

(* the resumption law of one call, all phases including the chunk decoder's sub-states *)
Theorem C02_one_call_resumable :
  forall (st : resp_state) (a b : bytes), rwf st ->
    rspec (resp_parse st a) (resp_parse st (a ++ b)) a b.
Proof. exact resp_parse_spec. Qed.
Print Assumptions C02_one_call_resumable.

(* non-vacuity: chunked response with extension, folded trailer and bytes after the end,
   cut inside the size line, inside the data, between data and CRLF, inside the folded
   trailer field, and after the end *)
Definition ex_resp : bytes :=
  str "HTTP/1.1 200 OK"%string ++ CRLF ++ str "Transfer-Encoding: chunked"%string ++ CRLF ++ CRLF
  ++ str "5;x=y"%string ++ CRLF ++ str "hello"%string ++ CRLF ++ str "0"%string ++ CRLF
  ++ str "A: b"%string ++ CRLF ++ str " c"%string ++ CRLF ++ CRLF ++ str "NEXT"%string.
Definition cut_at (ks : list nat) (s : bytes) : list bytes :=
  (fix go (prev : nat) (ks : list nat) : list bytes :=
     match ks with
     | [] => [skipn prev s]
     | k :: ks' => firstn (k - prev) (skipn prev s) :: go k ks'
     end) 0 ks.
Example C02_example :
  match feed _ resp_parse resp_init [] (cut_at [16; 48; 54; 59; 63; 70; 77] ex_resp) 0,
        feed _ resp_parse resp_init [] [ex_resp] 0 with
  | Done s1 t1 _, Done s2 t2 _ =>
      same_response s1 t1 s2 t2 /\ s_body s1 = str "hello"%string /\ t2 = 76
  | _, _ => False
  end.
Proof. vm_compute. repeat split. Qed.
