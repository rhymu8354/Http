(* C05 -- chunked decoding recovers exactly the payload and trailers, nothing else. *)
From Coq Require Import String.
From Http Require Import Model.Bytes Model.Utf8 Model.Num Model.Headers Model.Request Model.Chunked
     Spec.Delivery Spec.ChunkedGrammar Proofs.ChunkResume Proofs.ChunkGrammar Proofs.FeedGeneric
     Proofs.C02Response Spec.Rejections.

(* The grammar (Spec/ChunkedGrammar.v), pinned: *)
Check (IC_last : forall line block fields,
          size_line line 0 -> is_trailer block fields -> IsChunked (line ++ CRLF ++ block) [] fields).
Check (IC_chunk : forall line n data rest payload fields,
          size_line line n -> n <> 0%N -> length data = N.to_nat n -> IsChunked rest payload fields ->
          IsChunked (line ++ CRLF ++ data ++ CRLF ++ rest) (data ++ payload) fields).
Check (eq_refl : size_line = fun line n =>
          is_line line /\ utf8_valid line = true /\ parse_hex (size_field line) = Some n).

(* round trip: every well-formed chunked encoding (any partition into chunks, hex case, leading
   zeros, any extension text, any trailer fields) decodes to exactly its payload and trailers and
   stops exactly at its end, whatever follows *)
Theorem C05_decodes_exactly :
  forall (c payload : bytes) (trailers : list header) (rest : bytes),
    IsChunked c payload trailers ->
    chunk_decode chunk_init (c ++ rest) =
    ({| c_phase := CTrailer; c_buffer := payload; c_trailer := trailers |}, Complete (length c)).
Proof. intros c p t rest H. exact (chunk_decode_complete c p t rest H). Qed.
Print Assumptions C05_decodes_exactly.

(* conversely: completion is reported only for a well-formed chunked body, whose payload is
   the concatenation of the declared data ranges and nothing else *)
Theorem C05_complete_only_if_wellformed :
  forall (s : bytes) (st : chunk_state) (n : nat),
    chunk_decode chunk_init s = (st, Complete n) ->
    IsChunked (firstn n s) (c_buffer st) (c_trailer st).
Proof. exact chunk_decode_sound. Qed.
Print Assumptions C05_complete_only_if_wellformed.

Theorem C05_grammar_unambiguous :
  forall c p t p' t', IsChunked c p t -> IsChunked c p' t' -> p = p' /\ t = t'.
Proof. exact IsChunked_functional. Qed.
Print Assumptions C05_grammar_unambiguous.

(* under all delivery segmentations: the decoder alone ... *)
Theorem C05_delivery_independent :
  forall ds : list bytes, ds <> [] ->
    feq chunk_state same_chunks
        (feed _ chunk_decode chunk_init [] ds 0)
        (feed _ chunk_decode chunk_init [] [concat ds] 0).
Proof. exact chunked_delivery_independent. Qed.
Print Assumptions C05_delivery_independent.

(* ... so a well-formed body is decoded exactly under every way of cutting it *)
Corollary C05_decodes_exactly_under_any_delivery :
  forall (c payload : bytes) (trailers : list header) (ds : list bytes),
    IsChunked c payload trailers -> ds <> [] -> concat ds = c ->
    exists rest,
      feed _ chunk_decode chunk_init [] ds 0 =
      Done {| c_phase := CTrailer; c_buffer := payload; c_trailer := trailers |} (length c) rest.
Proof.
  intros c p t ds H Hne Hc.
  pose proof (chunked_delivery_independent ds Hne) as HF. rewrite Hc in HF.
  rewrite feed_one in HF. cbn [app] in HF.
  pose proof (chunk_decode_complete c p t [] H) as HD. rewrite app_nil_r in HD. rewrite HD in HF.
  destruct (feed chunk_state chunk_decode chunk_init [] ds 0) as [s1 t1 r1|s1 t1 p1|e1]; cbn [feq] in HF;
    try contradiction.
  destruct HF as [-> ->]. exists r1. reflexivity.
Qed.
Print Assumptions C05_decodes_exactly_under_any_delivery.

(* rejections: the decoder rejects with category e exactly when the input consists of well-formed
   chunks followed by a first offending element of that category (Spec/Rejections.v) *)
Theorem C05_rejection_names_first_defect :
  forall s e, (exists st, chunk_decode chunk_init s = (st, Reject e)) <-> chunked_defect s e.
Proof. exact chunk_reject_iff. Qed.
Print Assumptions C05_rejection_names_first_defect.

(* non-vacuity *)
Example C05_example :
  IsChunked (str "5;x=y"%string ++ CRLF ++ str "hello"%string ++ CRLF
             ++ str "000"%string ++ CRLF ++ str "A: b"%string ++ CRLF ++ CRLF)
            (str "hello"%string) [(str "A"%string, str "b"%string)].
Proof.
  apply (IC_chunk (str "5;x=y"%string) 5%N (str "hello"%string)
                  (str "000"%string ++ CRLF ++ str "A: b"%string ++ CRLF ++ CRLF) [] _).
  - repeat split.
  - discriminate.
  - reflexivity.
  - apply (IC_last (str "000"%string) (str "A: b"%string ++ CRLF ++ CRLF)).
    + repeat split.
    + reflexivity.
Qed.
Example C05_rejections :
  snd (chunk_decode chunk_init (str "g"%string ++ CRLF)) = Reject EInvalidChunkSize
  /\ snd (chunk_decode chunk_init CRLF) = Reject EInvalidChunkSize
  /\ snd (chunk_decode chunk_init (str "10000000000000000"%string ++ CRLF)) = Reject EInvalidChunkSize
  /\ snd (chunk_decode chunk_init (str "1"%string ++ CRLF ++ str "ab"%string)) = Reject EInvalidChunkTerminator
  /\ snd (chunk_decode chunk_init (str "5"%string ++ [CR] ++ str "x"%string ++ CRLF)) = Reject EInvalidChunkSize
  /\ snd (chunk_decode chunk_init (str "+5"%string ++ CRLF)) = Reject EInvalidChunkSize
  /\ snd (chunk_decode chunk_init (str "0"%string ++ CRLF ++ str "bad"%string ++ CRLF)) = Reject (ETrailer HNoColon).
Proof. vm_compute. repeat split. Qed.
