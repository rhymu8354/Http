(* C12 -- after de-chunking, the response headers describe the decoded body. *)
From Coq Require Import String.
From Http Require Import Model.Bytes Model.Num Model.Headers Model.Request Model.Chunked
     Model.Response Proofs.HeaderAlgebra Proofs.Rewrite.

(* H: the headers as parsed; T: the trailer fields; body: the decoded body.  The parser
   stores [dechunk_headers H T body] (C12_parser_stores_rewrite). *)

Theorem C12_content_length :
  forall (H T : list header) (body : bytes),
    header_value H CONTENT_LENGTH = None ->      (* chunked framing is chosen only then *)
    header_multi_value (dechunk_headers H T body) CONTENT_LENGTH
    = [show_dec (N.of_nat (length body))].
Proof. exact dechunk_content_length. Qed.
Print Assumptions C12_content_length.

(* the final coding (last non-empty list element) is removed, every other listed coding
   stays, in order, in ONE header joined with ", "; no header when none remain *)
Theorem C12_transfer_encoding :
  forall (H T : list header) (body : bytes),
    let toks := removelast (filter nonempty (header_tokens H TRANSFER_ENCODING)) in
    header_multi_value (dechunk_headers H T body) TRANSFER_ENCODING =
    match toks with [] => [] | _ => [join [COMMA; SP] toks] end.
Proof. exact dechunk_transfer_encoding. Qed.
Print Assumptions C12_transfer_encoding.

(* ... and tokenising that header gives back exactly those codings: the final coding is no longer
   listed, every other listed coding is, in its original order *)
Theorem C12_codings_listed :
  forall (H T : list header) (body : bytes),
    header_tokens (dechunk_headers H T body) TRANSFER_ENCODING =
    removelast (filter nonempty (header_tokens H TRANSFER_ENCODING)).
Proof. exact dechunk_codings_listed. Qed.
Print Assumptions C12_codings_listed.

Theorem C12_no_trailer_header :
  forall (H T : list header) (body : bytes), has_header (dechunk_headers H T body) TRAILER = false.
Proof. exact dechunk_no_trailer. Qed.
Print Assumptions C12_no_trailer_header.

(* all other headers: originals then non-framing trailer fields, order and values kept *)
Theorem C12_other_headers :
  forall (H T : list header) (body : bytes),
    filter (outside FRAMING) (dechunk_headers H T body)
    = filter (outside FRAMING) H ++ filter (outside FRAMING) T.
Proof. exact dechunk_others. Qed.
Print Assumptions C12_other_headers.

(* framing fields in the trailer (any letter case) cannot alter the framing description *)
Theorem C12_trailer_framing_fields_ignored :
  forall (H T : list header) (body : bytes),
    dechunk_headers H T body =
    dechunk_headers H (filter (fun h => negb (is_framing_name (fst h))) T) body.
Proof. exact dechunk_trailer_framing_ignored. Qed.
Print Assumptions C12_trailer_framing_fields_ignored.

Theorem C12_parser_stores_rewrite :
  forall (st : resp_state) (cs : chunk_state) (buf : bytes) (st1 : resp_state) (c : nat),
    resp_chunked st cs buf = (st1, Complete c) ->
    exists cs', chunk_decode cs buf = (cs', Complete c) /\
                s_headers st1 = dechunk_headers (s_headers st) (c_trailer cs') (c_buffer cs') /\
                s_body st1 = c_buffer cs'.
Proof. exact resp_chunked_headers. Qed.
Print Assumptions C12_parser_stores_rewrite.

(* non-vacuity, incl. the three defects repaired by the fix commits: trailer Content-Length,
   several codings, trailing empty list elements *)
Example C12_example :
  let H := [(str "Transfer-Encoding"%string, str "gzip, deflate"%string);
            (str "X"%string, str "1"%string);
            (str "transfer-encoding"%string, str "Chunked,,"%string);
            (str "Trailer"%string, str "Y"%string)] in
  let T := [(str "content-length"%string, str "999"%string); (str "Y"%string, str "2"%string)] in
  dechunk_headers H T (str "hello"%string) =
  [(str "Transfer-Encoding"%string, str "gzip, deflate"%string); (str "X"%string, str "1"%string);
   (str "Y"%string, str "2"%string); (str "Content-Length"%string, str "5"%string)].
Proof. vm_compute. reflexivity. Qed.
