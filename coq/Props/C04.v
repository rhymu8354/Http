(* C04 -- the response parser accepts exactly the response grammar and framing order.
   Acceptance (sound, complete), framing order, trailing data, "proper prefixes need more
   input", timeliness and the rejection categories (first offending element) are proved. *)
From Coq Require Import String.
From Http Require Import Model.Bytes Model.Utf8 Model.Num Model.Headers Model.Request
     Model.Chunked Model.Response Spec.HeaderGrammar Spec.ChunkedGrammar Spec.ResponseGrammar
     Spec.Rejections Proofs.RespGrammar Proofs.Timely Proofs.RespRejects.

Check (eq_refl : status_line = fun codetext reason => HTTP11 ++ [SP] ++ codetext ++ [SP] ++ reason).
Check (Fr_fixed : forall hs t n body,
          header_value hs CONTENT_LENGTH = Some t -> parse_dec t = Some n -> length body = N.to_nat n ->
          framing_of hs body hs body).
Check (Fr_chunked : forall hs c payload tfields,
          header_value hs CONTENT_LENGTH = None -> has_header_token hs TRANSFER_ENCODING CHUNKED = true ->
          IsChunked c payload tfields -> framing_of hs c (dechunk_headers hs tfields payload) payload).
Check (Fr_none : forall hs,
          header_value hs CONTENT_LENGTH = None -> has_header_token hs TRANSFER_ENCODING CHUNKED = false ->
          framing_of hs [] hs []).

(* sound: a completed parse is a response of the grammar up to the boundary, and the trailing
   data is exactly the bytes of this call after the boundary, verbatim and in order *)
Theorem C04_accept_sound :
  forall s st c,
    resp_parse resp_init s = (st, Complete c) ->
    let bd := c - length (s_trailer st) in
    c <= length s /\ length (s_trailer st) <= c /\
    IsResponse (firstn bd s) (resp_value_of st) /\
    s_trailer st = skipn bd (firstn c s).
Proof. exact resp_parse_sound. Qed.
Print Assumptions C04_accept_sound.

(* complete: every response of the grammar is accepted with exactly its elements; after a
   Content-Length body everything presented is kept as trailing data, after a chunked or
   body-less message nothing beyond it is consumed *)
Theorem C04_accept_complete :
  forall m v rest,
    IsResponse m v ->
    exists st c,
      resp_parse resp_init (m ++ rest) = (st, Complete c) /\ resp_value_of st = v /\
      c = length m + length (s_trailer st) /\
      (s_trailer st = rest \/ s_trailer st = []).
Proof. exact resp_parse_complete. Qed.
Print Assumptions C04_accept_complete.

Theorem C04_prefix_needs_more :
  forall m v p t,
    IsResponse m v -> m = p ++ t -> t <> [] ->
    exists st c, resp_parse resp_init p = (st, Incomplete c).
Proof. exact response_prefix_needs_more. Qed.
Print Assumptions C04_prefix_needs_more.

(* timeliness: "more input" only while the element being read (status line, header block,
   declared body, chunked body) is unfinished *)
Theorem C04_more_input_only_while_unfinished :
  forall s st c,
    resp_parse resp_init s = (st, Incomplete c) ->
    match s_phase st with
    | SStatusLine => find_crlf s = None /\ c = 0
    | SHeaders =>
        exists e hs k, find_crlf s = Some e /\ c = e + 2 + k /\
                       hdr_parse None [] (skipn (e + 2) s) = HIncomplete hs k
    | SFixedBody n => c = length s /\ (N.of_nat (length (s_body st)) < n)%N
    | SChunkedBody cs => exists e hs ch k, find_crlf s = Some e /\
                       hdr_parse None [] (skipn (e + 2) s) = HComplete hs ch /\
                       chunk_decode chunk_init (skipn ch (skipn (e + 2) s)) = (cs, Incomplete k) /\
                       c = e + 2 + ch + k
    end.
Proof. exact response_incomplete_means_unfinished. Qed.
Print Assumptions C04_more_input_only_while_unfinished.

(* rejections: a fresh parser rejects an input with category e exactly when the input has a first
   offending element of that category (Spec/Rejections.v: response_defect -- status line not
   text / no protocol delimiter / wrong protocol / no code delimiter / code not 1*DIGIT / code
   >= 1000; first defective header line; bad Content-Length; in a chunked body the first bad
   chunk-size line, chunk terminator or trailer line).  Each constructor needs only the bytes
   up to the end of the offending element (line, header block up to that line, chunk up to its
   terminator), so the rejection comes at the latest when that element is complete. *)
Theorem C04_rejection_names_first_defect :
  forall s e, (exists st, resp_parse resp_init s = (st, Reject e)) <-> response_defect s e.
Proof. exact response_reject_iff. Qed.
Print Assumptions C04_rejection_names_first_defect.

Theorem C04_status_line_shape :
  forall line e, parse_status_line line = inr e <-> sshape_defect line e.
Proof. exact parse_status_line_reject. Qed.
Print Assumptions C04_status_line_shape.

(* status codes 0, 007, 999 accepted, 1000 and signed rejected; empty reason; framing order *)
Example C04_examples :
  let r code := snd (resp_parse resp_init (str "HTTP/1.1 "%string ++ code ++ str " "%string ++ CRLF ++ CRLF)) in
  r (str "0"%string) = Complete 15 /\ r (str "007"%string) = Complete 17 /\ r (str "999"%string) = Complete 17
  /\ r (str "1000"%string) = Reject EStatusCodeOutOfRange /\ r (str "+99"%string) = Reject EInvalidStatusCode
  /\ (let both := str "HTTP/1.1 200 OK"%string ++ CRLF ++ str "Transfer-Encoding: chunked"%string ++ CRLF
                   ++ str "Content-Length: 3"%string ++ CRLF ++ CRLF ++ str "0"%string ++ CRLF ++ CRLF in
      match resp_parse resp_init both with
      | (st, Complete c) => s_body st = str "0"%string ++ [CR; LF] /\ s_trailer st = [CR; LF]
      | _ => False
      end).
Proof. vm_compute. repeat split. Qed.

Example C04_rejection_examples :
  response_defect (str "HTTP/1.1 1000 X"%string ++ CRLF) EStatusCodeOutOfRange /\
  response_defect (str "HTTP/1.0 200 OK"%string ++ CRLF) EStatusLineProtocol /\
  response_defect (str "HTTP/1.1 200 OK"%string ++ CRLF ++ str "A: b"%string ++ CRLF ++ str "nocolon"%string ++ CRLF)
    (EHeaders HNoColon) /\
  response_defect (str "HTTP/1.1 200 OK"%string ++ CRLF ++ str "Transfer-Encoding: chunked"%string ++ CRLF ++ CRLF
                   ++ str "2"%string ++ CRLF ++ str "abX"%string) EInvalidChunkTerminator.
Proof.
  repeat split; apply C04_rejection_names_first_defect; eexists; vm_compute; reflexivity.
Qed.
