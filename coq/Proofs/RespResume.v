(* RespResume.v -- Response::parse is resumable for every framing.
   Each phase function is shown to meet rspec on its own (the body and the status line through
   equations on the shape of the buffer); a phase that hands over to the next one shifts the
   count, and rspec is closed under that shift (rspec_rshift). *)
From Coq Require Import Lia.
From Http Require Import Model.Bytes Model.Utf8 Model.Num Model.Headers Model.Request
     Model.Chunked Model.Response Spec.ChunkedGrammar
     Proofs.BytesLemmas Proofs.FeedGeneric Proofs.HeadersResume Proofs.ChunkResume.

Definition rwf (st : resp_state) : Prop :=
  match s_phase st with SChunkedBody cs => cwf cs | _ => True end.

Lemma rwf_init : rwf resp_init.
Proof. exact I. Qed.

Definition roeq (r1 r2 : resp_state * outcome) : Prop :=
  match r1, r2 with
  | (_, Reject e1), (_, Reject e2) => e1 = e2
  | _, _ => r1 = r2
  end.

(* [roeq] and the model's [rshift] unfold to [goeq] and [gshift] at this state type *)
Lemma roeq_refl r : roeq r r.
Proof. exact (goeq_refl resp_state r). Qed.

Lemma roeq_trans r1 r2 r3 : roeq r1 r2 -> roeq r2 r3 -> roeq r1 r3.
Proof. exact (goeq_trans resp_state r1 r2 r3). Qed.

Lemma roeq_rshift k r1 r2 : roeq r1 r2 -> roeq (rshift k r1) (rshift k r2).
Proof. exact (goeq_gshift resp_state k r1 r2). Qed.

Lemma rshift_rshift k1 k2 r : rshift k1 (rshift k2 r) = rshift (k1 + k2) r.
Proof. exact (gshift_gshift resp_state k1 k2 r). Qed.

Lemma rshift_0 r : rshift 0 r = r.
Proof. exact (gshift_0 resp_state r). Qed.

(* two completed response parses describe the same message: same status code, reason,
   final header list and body, and the same boundary (bytes consumed minus trailing data) *)
Definition same_response (s1 : resp_state) (t1 : nat) (s2 : resp_state) (t2 : nat) : Prop :=
  s_code s1 = s_code s2 /\ s_reason s1 = s_reason s2 /\ s_headers s1 = s_headers s2 /\
  s_body s1 = s_body s2 /\ t1 + length (s_trailer s2) = t2 + length (s_trailer s1).

Lemma same_response_refl s t : same_response s t s t.
Proof. repeat split. Qed.

Lemma same_response_trans s1 t1 s2 t2 s3 t3 :
  same_response s1 t1 s2 t2 -> same_response s2 t2 s3 t3 -> same_response s1 t1 s3 t3.
Proof.
  intros [A1 [A2 [A3 [A4 A5]]]] [B1 [B2 [B3 [B4 B5]]]].
  repeat split; try congruence. lia.
Qed.

Lemma same_response_shift k s1 t1 s2 t2 :
  same_response s1 t1 s2 t2 -> same_response s1 (k + t1) s2 (k + t2).
Proof. intros [A1 [A2 [A3 [A4 A5]]]]. repeat split; try assumption. lia. Qed.

Definition rspec (r_a r_ab : resp_state * outcome) (a b : bytes) : Prop :=
  match r_a with
  | (st1, Complete c) =>
      c <= length a /\ exists st1' c', r_ab = (st1', Complete c') /\ same_response st1 c st1' c'
  | (st1, Incomplete c) =>
      c <= length a /\ rwf st1 /\ roeq r_ab (rshift c (resp_parse st1 (skipn c a ++ b)))
  | (_, Reject e) => exists st' e', r_ab = (st', Reject e')
  end.

Lemma rspec_rshift k a b r_a r_ab :
  k <= length a -> rspec r_a r_ab (skipn k a) b -> rspec (rshift k r_a) (rshift k r_ab) a b.
Proof.
  intros Hk. destruct r_a as [s1 [c|c|e]]; simpl; rewrite ?skipn_length.
  - intros [Hc [st1' [c' [-> Hs]]]]. split; [lia|]. exists st1', (k + c').
    split; [reflexivity|]. apply same_response_shift. exact Hs.
  - intros [Hc [Hw H]]. split; [lia|]. split; [exact Hw|].
    rewrite skipn_skipn' in H.
    rewrite <- rshift_rshift. apply roeq_rshift. exact H.
  - intros [st' [e' ->]]. exists st', e'. reflexivity.
Qed.

Lemma resp_fixed_whole st n data rest :
  length data = N.to_nat (n - N.of_nat (length (s_body st))) ->
  resp_fixed st n (data ++ rest) =
  ({| s_phase := SFixedBody n; s_code := s_code st; s_reason := s_reason st;
      s_headers := s_headers st; s_body := s_body st ++ data;
      s_trailer := s_trailer st ++ rest |}, Complete (length (data ++ rest))).
Proof.
  intros Hd. unfold resp_fixed. cbv zeta.
  destruct (N.leb_spec (n - N.of_nat (length (s_body st))) (N.of_nat (length (data ++ rest))))
    as [_|L]; [|rewrite app_length in L; lia].
  rewrite <- Hd, firstn_app_exact, skipn_app_exact. reflexivity.
Qed.

Lemma resp_fixed_short st n buf :
  (N.of_nat (length buf) < n - N.of_nat (length (s_body st)))%N ->
  resp_fixed st n buf =
  ({| s_phase := SFixedBody n; s_code := s_code st; s_reason := s_reason st;
      s_headers := s_headers st; s_body := s_body st ++ buf;
      s_trailer := s_trailer st |}, Incomplete (length buf)).
Proof.
  intros Hlt. unfold resp_fixed. cbv zeta.
  destruct (N.leb_spec (n - N.of_nat (length (s_body st))) (N.of_nat (length buf))) as [L|_];
    [lia|reflexivity].
Qed.

Lemma resp_fixed_spec st n a b :
  rspec (resp_fixed st n a) (resp_fixed st n (a ++ b)) a b.
Proof.
  set (needed := (n - N.of_nat (length (s_body st)))%N).
  destruct (N.lt_ge_cases (N.of_nat (length a)) needed) as [Hs|He].
  - (* a does not hold the whole body: does a ++ b? *)
    rewrite (resp_fixed_short st n a Hs). split; [apply le_n|]. split; [exact I|].
    rewrite skipn_all. unfold resp_parse. cbn [app s_phase].
    destruct (N.lt_ge_cases (N.of_nat (length b)) (needed - N.of_nat (length a))) as [Hs2|He2].
    + rewrite !resp_fixed_short by (cbn [s_body]; rewrite app_length; lia).
      cbn [rshift s_code s_reason s_headers s_body s_trailer].
      rewrite app_length, app_assoc. reflexivity.
    + destruct (app_split (N.to_nat (needed - N.of_nat (length a))) b) as (d & r & -> & Hd); [lia|].
      rewrite (resp_fixed_whole _ n d r) by (cbn [s_body]; rewrite app_length; lia).
      rewrite (app_assoc a d r), (resp_fixed_whole st n (a ++ d) r) by (rewrite app_length; lia).
      cbn [rshift s_code s_reason s_headers s_body s_trailer].
      rewrite !app_length, !app_assoc, Nat.add_assoc. reflexivity.
  - destruct (app_split (N.to_nat needed) a) as (d & r & -> & Hd); [lia|].
    rewrite <- app_assoc, !resp_fixed_whole by exact Hd.
    split; [apply le_n|]. eexists _, _. split; [reflexivity|].
    repeat split. cbn [s_trailer]. rewrite !app_length. lia.
Qed.

Lemma resp_chunked_spec st cs a b :
  cwf cs ->
  rspec (resp_chunked st cs a) (resp_chunked st cs (a ++ b)) a b.
Proof.
  intros Hwf. unfold resp_chunked at 1.
  pose proof (chunk_decode_app cs a b Hwf) as HC.
  destruct (chunk_decode cs a) as [cs1 [c|c|e]].
  - destruct HC as [Hc HC]. split; [exact Hc|].
    unfold resp_chunked. rewrite HC. eexists _, _. split; [reflexivity|]. apply same_response_refl.
  - destruct HC as (Hc & Hwf1 & HC). split; [exact Hc|]. split; [exact Hwf1|].
    unfold resp_parse, resp_chunked. cbn [s_phase s_code s_reason s_headers s_body s_trailer].
    apply (goeq_inv chunk_state) in HC.
    destruct (chunk_decode cs1 (skipn c a ++ b)) as [cs2 [c2|c2|e2]]; cbn [cshift] in HC.
    + rewrite HC. reflexivity.
    + rewrite HC. reflexivity.
    + destruct HC as [cs' ->]. reflexivity.
  - destruct HC as (st' & e' & HC). unfold resp_chunked. rewrite HC. cbn. eauto.
Qed.

Lemma resp_headers_spec st a b :
  rspec (resp_headers st a) (resp_headers st (a ++ b)) a b.
Proof.
  pose proof (hdr_parse_app None (s_headers st) a b (or_introl eq_refl)) as HP.
  unfold resp_headers at 1 2.
  destruct (hdr_parse None (s_headers st) a) as [hs1 c|hs1 c|e].
  - destruct HP as [Hc ->]. cbv zeta. rewrite (skipn_app_le c a b Hc).
    destruct (header_value hs1 CONTENT_LENGTH) as [v|].
    + destruct (parse_dec v) as [n|]; [|cbn; eauto].
      apply rspec_rshift; [exact Hc|apply resp_fixed_spec].
    + destruct (has_header_token hs1 TRANSFER_ENCODING CHUNKED).
      * apply rspec_rshift; [exact Hc|]. apply resp_chunked_spec. exact cwf_init.
      * split; [exact Hc|]. eexists _, _. split; [reflexivity|apply same_response_refl].
  - (* the block parser goes on from the fields it has; what follows the block is the same *)
    destruct HP as [Hc ->]. split; [exact Hc|]. split; [exact I|].
    unfold resp_parse, resp_headers. cbn [s_phase s_code s_reason s_headers s_body s_trailer].
    destruct (hdr_parse None hs1 (skipn c a ++ b)) as [hs2 c2|hs2 c2|e2]; cbn [hshift];
      [|reflexivity..].
    cbv zeta. rewrite (skipn_resumed c c2 a b Hc).
    destruct (header_value hs2 CONTENT_LENGTH) as [v|].
    + destruct (parse_dec v) as [n|]; [|reflexivity]. rewrite rshift_rshift. apply roeq_refl.
    + destruct (has_header_token hs2 TRANSFER_ENCODING CHUNKED); [|reflexivity].
      rewrite rshift_rshift. apply roeq_refl.
  - destruct HP as [e' ->]. cbn. eauto.
Qed.

Lemma resp_line_form st l rest :
  is_line l ->
  resp_line st (l ++ CRLF ++ rest) =
  if negb (utf8_valid l) then (st, Reject EStatusLineNotValidText) else
  match parse_status_line l with
  | inr er => (st, Reject er)
  | inl (code, reason) =>
    rshift (length l + 2)
      (resp_headers {| s_phase := SHeaders; s_code := code; s_reason := reason;
                       s_headers := s_headers st; s_body := s_body st;
                       s_trailer := s_trailer st |} rest)
  end.
Proof.
  intros Hl. unfold resp_line. rewrite (is_line_find l rest Hl). cbv zeta.
  rewrite firstn_app_exact, skipn_line. reflexivity.
Qed.

Lemma resp_line_spec st a b :
  s_phase st = SStatusLine ->
  rspec (resp_line st a) (resp_line st (a ++ b)) a b.
Proof.
  intros Hph. destruct (line_cases a) as [E|(l & rest & -> & Hl)].
  - unfold resp_line at 1. rewrite E.
    split; [apply Nat.le_0_l|]. split; [unfold rwf; rewrite Hph; exact I|].
    rewrite rshift_0. unfold resp_parse. rewrite Hph. apply roeq_refl.
  - rewrite <- !app_assoc, !(resp_line_form st l _ Hl).
    destruct (negb (utf8_valid l)); [cbn; eauto|].
    destruct (parse_status_line l) as [[code reason]|er]; [|cbn; eauto].
    apply rspec_rshift; [rewrite app_assoc, !app_length; apply Nat.le_add_r|].
    rewrite skipn_line. apply resp_headers_spec.
Qed.

Theorem resp_parse_spec st a b :
  rwf st -> rspec (resp_parse st a) (resp_parse st (a ++ b)) a b.
Proof.
  intros Hwf. unfold resp_parse at 1 2. destruct (s_phase st) as [| |n|cs] eqn:Hph.
  - apply resp_line_spec. exact Hph.
  - apply resp_headers_spec.
  - apply resp_fixed_spec.
  - apply resp_chunked_spec. unfold rwf in Hwf. rewrite Hph in Hwf. exact Hwf.
Qed.
