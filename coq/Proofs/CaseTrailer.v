(* CaseTrailer.v -- C18 for chunked responses at the level of bytes, letter case changed both in
   the header block and in the trailer section: same verdict, boundary, body; stored headers
   equal up to letter case. *)
From Http Require Import Model.Bytes Model.Utf8 Model.Headers Model.Request Model.Chunked Model.Response
     Spec.ChunkedGrammar Proofs.BytesLemmas Proofs.HeadersResume Proofs.CaseLemmas Proofs.ChunkGrammar
     Proofs.RespGrammar Proofs.CaseEndToEnd.

(* a well-formed chunked body, and the same body with the letter case of its trailer section
   changed *)
Inductive chunked_variant : bytes -> bytes -> Prop :=
| CV_last line block block' fields :
    size_line line 0 -> is_trailer block fields -> ci_eq block block' ->
    chunked_variant (line ++ CRLF ++ block) (line ++ CRLF ++ block')
| CV_chunk line n data rest rest' :
    size_line line n -> n <> 0%N -> length data = N.to_nat n -> chunked_variant rest rest' ->
    chunked_variant (line ++ CRLF ++ data ++ CRLF ++ rest) (line ++ CRLF ++ data ++ CRLF ++ rest').

Theorem chunked_variant_decodes c c' :
  chunked_variant c c' ->
  exists p tf tf', IsChunked c p tf /\ IsChunked c' p tf' /\ hdrs_ci tf tf' /\ length c = length c'.
Proof.
  induction 1 as [line block block' fields Hs Ht Hc|line n data rest rest' Hs Hn Hd _ IH].
  - unfold is_trailer in Ht.
    destruct (block_case_variant None block block' fields Hc Ht) as [fields' [Ht' Hci]].
    exists [], fields, fields'. split; [apply IC_last; assumption|].
    split; [apply IC_last; assumption|]. split; [exact Hci|].
    rewrite !app_length. rewrite (ci_eq_length _ _ Hc). reflexivity.
  - destruct IH as [p [tf [tf' [H1 [H2 [H3 H4]]]]]].
    exists (data ++ p), tf, tf'. split; [apply (IC_chunk line n); assumption|].
    split; [apply (IC_chunk line n); assumption|]. split; [exact H3|].
    rewrite !app_length. rewrite H4. reflexivity.
Qed.

Theorem chunked_response_case_insensitive l block block' wire wire' rest hs code reason :
  is_line l -> utf8_valid l = true -> parse_status_line l = inl (code, reason) ->
  ci_eq block block' -> hdr_parse None [] block = HComplete hs (length block) ->
  header_value hs CONTENT_LENGTH = None -> has_header_token hs TRANSFER_ENCODING CHUNKED = true ->
  chunked_variant wire wire' ->
  exists st st' c,
    resp_parse resp_init (l ++ CRLF ++ block ++ wire ++ rest) = (st, Complete c) /\
    resp_parse resp_init (l ++ CRLF ++ block' ++ wire' ++ rest) = (st', Complete c) /\
    c = length (l ++ CRLF ++ block ++ wire) /\
    s_code st = s_code st' /\ s_reason st = s_reason st' /\ s_body st = s_body st' /\
    s_trailer st = s_trailer st' /\ hdrs_ci (s_headers st) (s_headers st').
Proof.
  intros Hl U PL Hc HP HV HT HW.
  destruct (chunked_variant_decodes _ _ HW) as [p [tf [tf' [I1 [I2 [Htf Hlen]]]]]].
  destruct (block_variant_then_rest None block block' hs Hc HP) as [hs' [Hci HP']].
  destruct (HP' (wire' ++ rest)) as [E' Hsk].
  assert (HV' : header_value hs' CONTENT_LENGTH = None)
    by (destruct (header_value_ci hs hs' CONTENT_LENGTH CONTENT_LENGTH Hci eq_refl);
        [reflexivity|discriminate HV]).
  pose proof (has_header_token_ci hs hs' TRANSFER_ENCODING TRANSFER_ENCODING CHUNKED CHUNKED Hci eq_refl eq_refl) as HTci.
  rewrite HT in HTci.
  rewrite !(resp_parse_line_form l _ Hl). rewrite U, PL. cbn [negb].
  unfold resp_headers. cbn [s_headers after_status_line].
  rewrite (proj2 (hdr_parse_complete_app _ _ _ (wire ++ rest) _ _ HP)), E', Hsk, skipn_app_exact.
  cbv zeta. rewrite HV, HV', HT, <- HTci. unfold resp_chunked.
  rewrite (chunk_decode_complete wire p tf rest I1), (chunk_decode_complete wire' p tf' rest I2).
  cbn [rshift c_buffer c_trailer s_code s_reason s_body s_trailer s_headers after_status_line].
  eexists _, _, _. split; [reflexivity|]. split.
  - rewrite <- Hlen. reflexivity.
  - cbn [s_code s_reason s_body s_trailer s_headers].
    split; [rewrite !app_length; symmetry; apply Nat.add_assoc|]. repeat split.
    apply dechunk_headers_trailer_ci; assumption.
Qed.
