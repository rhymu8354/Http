(* HuffmanFixedLZ.v -- what a block in the fixed code carries when it has literals AND matches (what zlib
   emits with Z_FIXED at any level), for ANY choice of matches the encoder made: the symbols (fsym), their
   bits, and the bytes that RFC 1951's byte-at-a-time copy semantics assigns to the symbol sequence.
   Definitions, and how the decoder reads a value written least significant first (getbits_lsb: extra
   bits; getbits_offset: the counts of a dynamic header); the theorems about such blocks are in HuffmanGen.v and DeflateStream.v. *)
From Coq Require Import List NArith Arith Lia.
From Http Require Import Model.Bytes Model.Inflate Proofs.HuffmanCanon Proofs.HuffmanFixed.
Import ListNotations.

(* n bits of v, least significant first (extra bits of lengths and distances) *)
Fixpoint lsb_bits (n : nat) (v : N) : list bool :=
  match n with
  | 0 => []
  | S n' => N.odd v :: lsb_bits n' (N.div2 v)
  end.

Lemma getbits_lsb n : forall v s t,
    bits_of s = lsb_bits n v ++ t -> (v < 2 ^ N.of_nat n)%N ->
    exists s', getbits n s = Ok v s' /\ bits_of s' = t.
Proof.
  induction n as [|n IH]; intros v s t H Hv.
  - apply N.lt_1_r in Hv. subst v. exists s. split; [reflexivity | exact H].
  - cbn [lsb_bits app] in H. destruct (getbit_view _ _ _ H) as [s1 [G B1]].
    destruct (IH (N.div2 v) s1 t B1) as [s' [G' B']].
    + rewrite N.div2_div. apply N.div_lt_upper_bound; [discriminate|].
      rewrite <- N.pow_succ_r', <- Nat2N.inj_succ. exact Hv.
    + exists s'. split; [|exact B']. cbn [getbits]. rewrite G, G', N.add_comm. f_equal.
      symmetry. apply N.div2_odd.
Qed.

(* a count n in lo..hi, written as n - lo in k bits (HLIT, HDIST, HCLEN) *)
Lemma getbits_offset k lo hi n s t :
  lo <= n -> n <= hi -> (N.of_nat (hi - lo) < 2 ^ N.of_nat k)%N ->
  bits_of s = lsb_bits k (N.of_nat (n - lo)) ++ t ->
  exists v s', getbits k s = Ok v s' /\ N.to_nat v + lo = n /\ bits_of s' = t.
Proof.
  intros Hlo Hhi Hk Hb. destruct (getbits_lsb k _ s t Hb) as [s' [G B']]; [lia|].
  exists (N.of_nat (n - lo)), s'. rewrite Nat2N.id, Nat.sub_add by exact Hlo. auto.
Qed.

(* the fixed distance code: 32 codes of 5 bits *)
Definition fixed_dcode (dsym : nat) : list bool := code_bits fixed_dist_lens dsym 5.

(* what an encoder emits: literals and (length symbol, extra, distance symbol, extra) *)
Inductive fsym := FLit (b : N) | FMatch (lsym : nat) (e : N) (dsym : nat) (e2 : N).

Definition fsym_ok (x : fsym) : Prop :=
  match x with
  | FLit b => (b < 256)%N
  | FMatch lsym e dsym e2 =>
      257 <= lsym /\ lsym <= 285 /\ (e < 2 ^ N.of_nat (nth (lsym - 257)%nat LENGTH_EXTRA 0%nat))%N /\
      dsym <= 29 /\ (e2 < 2 ^ N.of_nat (nth dsym DIST_EXTRA 0%nat))%N
  end.

Definition fsym_bits (x : fsym) : list bool :=
  match x with
  | FLit b => fixed_code (N.to_nat b)
  | FMatch lsym e dsym e2 =>
      fixed_code lsym ++ lsb_bits (nth (lsym - 257) LENGTH_EXTRA 0) e
      ++ fixed_dcode dsym ++ lsb_bits (nth dsym DIST_EXTRA 0) e2
  end.

(* RFC 1951 semantics of the symbols over the output so far (most recent byte first) *)
Definition fsym_apply (out : bytes) (x : fsym) : bytes :=
  match x with
  | FLit b => b :: out
  | FMatch lsym e dsym e2 =>
      copy_match (N.to_nat (nth (lsym - 257)%nat LENGTH_BASE 0 + e)%N) (N.to_nat (nth dsym DIST_BASE 0 + e2)%N) out
  end.

Fixpoint block_bits (xs : list fsym) : list bool :=
  match xs with
  | [] => fixed_code 256
  | x :: t => fsym_bits x ++ block_bits t
  end.

Lemma lit_bits_block d : lit_bits d = block_bits (map FLit d).
Proof. induction d as [|b d IH]; [reflexivity|]. cbn [lit_bits map block_bits fsym_bits]. rewrite IH. reflexivity. Qed.

Lemma literals_apply d : forall out, fold_left fsym_apply (map FLit d) out = rev d ++ out.
Proof.
  induction d as [|b d IH]; intros out; [reflexivity|]. cbn [map fold_left fsym_apply rev].
  rewrite IH, <- app_assoc. reflexivity.
Qed.
