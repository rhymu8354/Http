(* InflateC15.v -- the truncation facts that Proofs/CodingGlue.v takes as hypotheses about the
   stream decoders, proved for the model of flate2 (Model/Inflate.v), so that truncated_body_fails
   holds of decode_body with no hypothesis left; and what a success of the gzip and zlib decoders
   says about the stored check values. *)
From Coq Require Import List NArith Arith Bool Lia.
From Http Require Import Model.Bytes Model.Headers Model.Coding Model.Inflate
     Proofs.CodingGlue Proofs.InflateLocal Proofs.InflateTop.
Import ListNotations.

Definition decode_body_m := decode_body gunzip_model inflate_raw_model inflate_zlib_model.
Definition deflate_decode_m := deflate_decode inflate_raw_model inflate_zlib_model.

(* e is exactly one stream of format f carrying d: it decodes and nothing follows it; a bare
   stream must moreover not look like a zlib one, or deflate_decode would not try it as bare *)
Definition exact_stream (f : format) (d e : bytes) : Prop :=
  match f with
  | Gz => gunzip_fuel (fuel_for e) e = Ok d ([], [])
  | Zl => inflate_zlib_fuel (fuel_for e) e = Ok d ([], [])
  | Raw => inflate_fuel (fuel_for e) e = Ok d ([], []) /\ zlib_header e = false
  end.

(* the crate's test and miniz_oxide's are the same four conjuncts in a different order *)
Lemma zlib_header_ok_eq cmf flg t : zlib_header (cmf :: flg :: t) = zlib_header_ok cmf flg.
Proof.
  unfold zlib_header, zlib_header_ok.
  destruct (N.eqb (cmf mod 16) 8), (N.leb (cmf / 16) 7), (N.eqb ((flg / 32) mod 2) 0),
    (N.eqb ((cmf * 256 + flg) mod 31) 0); reflexivity.
Qed.

(* a lone CMF byte read as a bare deflate stream: a non-final stored block with no length *)
Lemma raw_single_cmf cmf : (cmf mod 16 = 8)%N -> inflate_raw_model [cmf] = None.
Proof.
  intros H.
  (* the four low bits of cmf are those of 8 *)
  assert (B : forall i, (i < 4)%N -> N.odd (N.shiftr cmf i) = N.odd (N.shiftr 8 i)).
  { intros i Hi. rewrite <- !N.testbit_odd, <- H. symmetry. exact (N.mod_pow2_bits_low cmf 4 i Hi). }
  pose proof (B 0%N eq_refl) as B0. pose proof (B 1%N eq_refl) as B1. pose proof (B 2%N eq_refl) as B2.
  cbn in B0, B1, B2.
  assert (G : exists cur, getbits 3 ([], [cmf] : bytes) = Ok 0%N (cur, [])).
  { unfold getbits, getbit, byte_bits. cbn [byte_bits_aux]. rewrite B0, B1, B2. eexists. reflexivity. }
  destruct G as [cur G].
  unfold inflate_raw_model, inflate_fuel, fuel_for. cbn [length Nat.mul Nat.add].
  rewrite blocks_S. unfold blocks_body, bind. rewrite G. reflexivity.
Qed.

Lemma zlib_stream_header f e d cur rest :
  inflate_zlib_fuel f e = Ok d (cur, rest) -> zlib_header e = true.
Proof.
  destruct e as [|cmf [|flg body]]; try discriminate. cbn [inflate_zlib_fuel].
  rewrite zlib_header_ok_eq. destruct (zlib_header_ok cmf flg); [reflexivity | discriminate].
Qed.

Lemma zlib_header_prefix p e : sprefix p e -> 2 <= length p -> zlib_header p = zlib_header e.
Proof.
  intros [t [_ E]] L. subst e. destruct p as [|a [|b p']]; simpl in L; try lia. reflexivity.
Qed.

Theorem gz_truncated_m d e p : exact_stream Gz d e -> strict_prefix p e -> gunzip_model p = None.
Proof. intros H Hp. exact (gunzip_truncated _ _ H _ Hp). Qed.

Theorem zl_truncated_m d e p : exact_stream Zl d e -> strict_prefix p e -> deflate_decode_m p = None.
Proof.
  intros H Hp. unfold deflate_decode_m, deflate_decode.
  destruct (zlib_header p) eqn:Hz.
  - exact (inflate_zlib_truncated _ _ H _ Hp).
  - pose proof (zlib_stream_header _ _ _ _ _ H) as He.
    destruct p as [|a [|b p']].
    + reflexivity.
    + (* one byte: it is the CMF byte of e *)
      destruct Hp as [t [_ E]]. subst e. cbn [app] in He.
      destruct t as [|flg t']; [discriminate|].
      unfold zlib_header in He. apply raw_single_cmf.
      destruct (N.eqb (a mod 16) 8) eqn:E8; [apply N.eqb_eq; exact E8 | discriminate].
    + rewrite (zlib_header_prefix _ _ Hp) in Hz by (simpl; lia). congruence.
Qed.

Theorem raw_truncated_m d e p : exact_stream Raw d e -> strict_prefix p e -> deflate_decode_m p = None.
Proof.
  intros [H Hz] Hp. unfold deflate_decode_m, deflate_decode.
  assert (Hzp : zlib_header p = false).
  { destruct p as [|a [|b p']]; try reflexivity.
    rewrite (zlib_header_prefix _ _ Hp) by (simpl; lia). exact Hz. }
  rewrite Hzp. exact (inflate_raw_truncated _ _ H _ Hp).
Qed.

(* C15, truncation: no hypothesis about the decoders is left *)
Theorem truncated_body_fails_m hs f d e p :
  exact_stream f d e -> strict_prefix p e ->
  header_tokens hs CONTENT_ENCODING = [coding_token f] ->
  decode_body_m hs p = None.
Proof.
  intros He Hp Ht.
  exact (truncated_body_fails gunzip_model inflate_raw_model inflate_zlib_model exact_stream
           gz_truncated_m zl_truncated_m raw_truncated_m hs f d e p He Hp Ht).
Qed.

(* C15, integrity: when the gzip (resp. zlib) decoder succeeds, the stored CRC-32 and length
   (resp. Adler-32) are those of its output, and other stored values would have been refused *)
Theorem gunzip_model_checks b out :
  gunzip_model b = Some out ->
  exists pre foot rest, b = pre ++ foot ++ rest /\ length foot = 8 /\
    le32 (firstn 4 foot) = crc32 out /\ le32 (skipn 4 foot) = (N.of_nat (length out) mod M32)%N /\
    forall foot' y, length foot' = 8 ->
      le32 (firstn 4 foot') <> le32 (firstn 4 foot) \/ le32 (skipn 4 foot') <> le32 (skipn 4 foot) ->
      gunzip_fuel (fuel_for b) (pre ++ foot' ++ y) = Bad.
Proof.
  unfold gunzip_model. intros H.
  destruct (gunzip_fuel (fuel_for b) b) as [o [cur rest]| |] eqn:E; try discriminate.
  inversion H; subst o. destruct (gunzip_checks _ _ _ _ _ E) as [pre [foot Hc]]. exists pre, foot, rest. exact Hc.
Qed.

Theorem zlib_model_checks b out :
  inflate_zlib_model b = Some out ->
  exists pre a4 rest, b = pre ++ a4 ++ rest /\ length a4 = 4 /\ be32 a4 = adler32 out /\
    forall a4' y, length a4' = 4 -> be32 a4' <> be32 a4 ->
      inflate_zlib_fuel (fuel_for b) (pre ++ a4' ++ y) = Bad.
Proof.
  unfold inflate_zlib_model. intros H.
  destruct (inflate_zlib_fuel (fuel_for b) b) as [o [cur rest]| |] eqn:E; try discriminate.
  inversion H; subst o. destruct (zlib_checks _ _ _ _ _ E) as [pre [a4 Hc]]. exists pre, a4, rest. exact Hc.
Qed.
