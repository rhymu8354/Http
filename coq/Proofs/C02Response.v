(* C02Response.v -- the generic delivery theorem (FeedGeneric.feed_concat) instantiated twice: for
   Response::parse (C02) and for ChunkedBody::decode on its own (C05, delivery part).  Then, for
   responses: the trailing data of a completed response is exactly the delivered bytes that
   follow the boundary, under every delivery schedule (C02, second half). *)
From Coq Require Import Lia.
From Http Require Import Model.Bytes Model.Request Model.Chunked Model.Response Spec.Delivery
     Proofs.ChunkResume Proofs.RespResume Proofs.FeedGeneric Model.Num Model.Headers
     Proofs.BytesLemmas Proofs.HeadersResume.

Lemma resp_resumable : resumable resp_state resp_parse rwf same_response.
Proof.
  intros st a b Hinv.
  pose proof (resp_parse_spec st a b Hinv) as HS. unfold rspec in HS.
  destruct (resp_parse st a) as [st1 [c|c|e]]; exact HS.
Qed.

Theorem response_delivery_independent ds :
  ds <> [] ->
  feq resp_state same_response
      (feed resp_state resp_parse resp_init [] ds 0)
      (feed resp_state resp_parse resp_init [] [concat ds] 0).
Proof.
  intros Hne.
  apply (feed_concat resp_state resp_parse rwf same_response).
  - exact same_response_refl.
  - exact same_response_trans.
  - exact same_response_shift.
  - exact resp_resumable.
  - exact Hne.
  - exact rwf_init.
Qed.

Definition same_chunks (s1 : chunk_state) (t1 : nat) (s2 : chunk_state) (t2 : nat) : Prop :=
  s1 = s2 /\ t1 = t2.

Lemma chunk_resumable : resumable chunk_state chunk_decode cwf same_chunks.
Proof.
  intros st a b Hinv.
  pose proof (chunk_decode_app st a b Hinv) as HS.
  destruct (chunk_decode st a) as [st1 [c|c|e]].
  - destruct HS as [Hc HS]. split; [exact Hc|]. exists st1, c. split; [exact HS|split; reflexivity].
  - exact HS.
  - exact HS.
Qed.

Theorem chunked_delivery_independent ds :
  ds <> [] ->
  feq chunk_state same_chunks
      (feed chunk_state chunk_decode chunk_init [] ds 0)
      (feed chunk_state chunk_decode chunk_init [] [concat ds] 0).
Proof.
  intros Hne.
  apply (feed_concat chunk_state chunk_decode cwf same_chunks).
  - intros s c. split; reflexivity.
  - intros s1 c1 s2 c2 s3 c3 [-> ->] [-> ->]. split; reflexivity.
  - intros k s1 c1 s2 c2 [-> ->]. split; reflexivity.
  - exact chunk_resumable.
  - exact Hne.
  - exact cwf_init.
Qed.

(* one call: an Incomplete answer leaves the trailing data alone; a Complete one appends the
   bytes of this call from some position k <= consumed on *)
Definition trailer_step (st : resp_state) (buf : bytes) (r : resp_state * outcome) : Prop :=
  match r with
  | (st1, Incomplete _) => s_trailer st1 = s_trailer st
  | (st1, Complete c) =>
      exists k, k <= c /\ c <= length buf /\ s_trailer st1 = s_trailer st ++ skipn k (firstn c buf)
  | (_, Reject _) => True
  end.

Lemma trailer_step_rshift st buf j r :
  j <= length buf ->
  trailer_step st (skipn j buf) r -> trailer_step st buf (rshift j r).
Proof.
  intros Hj. destruct r as [st1 [c|c|e]]; cbn [rshift trailer_step]; try tauto.
  intros [k [Hk [Hc Ht]]]. rewrite skipn_length in Hc. exists (j + k). split; [lia|]. split; [lia|].
  rewrite Ht. f_equal. rewrite firstn_plus. rewrite skipn_app.
  rewrite firstn_length. replace (Nat.min j (length buf)) with j by lia.
  replace (j + k - j) with k by lia.
  rewrite (skipn_all2 (firstn j buf)); [reflexivity|].
  apply Nat.le_trans with j; [apply firstn_le_length|lia].
Qed.

Lemma resp_fixed_trailer st n buf : trailer_step st buf (resp_fixed st n buf).
Proof.
  unfold resp_fixed. cbv zeta.
  destruct (N.leb _ _) eqn:E; cbn [trailer_step s_trailer]; [|reflexivity].
  apply N.leb_le in E.
  exists (N.to_nat (n - N.of_nat (length (s_body st)))). split; [lia|]. split; [reflexivity|].
  rewrite firstn_all. reflexivity.
Qed.

Lemma resp_chunked_trailer st cs buf : cwf cs -> trailer_step st buf (resp_chunked st cs buf).
Proof.
  intros Hwf. unfold resp_chunked.
  pose proof (chunk_decode_app cs buf [] Hwf) as Hc.
  destruct (chunk_decode cs buf) as [cs' [c|c|e]]; cbn [trailer_step s_trailer];
    [|reflexivity|exact I].
  destruct Hc as [Hc _]. exists c. split; [lia|]. split; [exact Hc|].
  rewrite skipn_all2 by (rewrite firstn_length; lia). rewrite app_nil_r. reflexivity.
Qed.

Lemma resp_headers_trailer st buf : trailer_step st buf (resp_headers st buf).
Proof.
  unfold resp_headers.
  destruct (hdr_parse None (s_headers st) buf) as [hs c|hs c|e] eqn:HP; cbn [trailer_step s_trailer];
    [|reflexivity|exact I].
  pose proof (hdr_parse_complete_tail _ _ _ _ _ HP) as [_ [Hc _]]. cbv zeta.
  set (st1 := {| s_phase := SHeaders; s_code := s_code st; s_reason := s_reason st;
                 s_headers := hs; s_body := s_body st; s_trailer := s_trailer st |}).
  destruct (header_value hs CONTENT_LENGTH) as [v|].
  - destruct (parse_dec v) as [n|]; [|exact I].
    apply (trailer_step_rshift st buf c _ Hc). apply (resp_fixed_trailer st1 n).
  - destruct (has_header_token hs TRANSFER_ENCODING CHUNKED).
    + apply (trailer_step_rshift st buf c _ Hc). apply (resp_chunked_trailer st1 chunk_init). exact cwf_init.
    + cbn [trailer_step s_trailer]. exists c. split; [lia|]. split; [exact Hc|].
      rewrite skipn_all2 by (rewrite firstn_length; lia). rewrite app_nil_r. reflexivity.
Qed.

Lemma resp_line_trailer st buf : trailer_step st buf (resp_line st buf).
Proof.
  unfold resp_line. destruct (find_crlf buf) as [e|] eqn:E; [|reflexivity]. cbv zeta.
  pose proof (find_crlf_bound _ _ E) as B.
  destruct (negb _); [exact I|].
  destruct (parse_status_line _) as [[code reason]|er]; [|exact I].
  apply (trailer_step_rshift st buf (e + 2)); [lia|].
  set (st' := {| s_phase := SHeaders; s_code := code; s_reason := reason; s_headers := s_headers st;
                 s_body := s_body st; s_trailer := s_trailer st |}).
  apply (resp_headers_trailer st').
Qed.

Lemma resp_parse_trailer st buf : rwf st -> trailer_step st buf (resp_parse st buf).
Proof.
  intros Hwf. unfold resp_parse. destruct (s_phase st) as [| |n|cs] eqn:Hph.
  - apply resp_line_trailer.
  - apply resp_headers_trailer.
  - apply resp_fixed_trailer.
  - apply resp_chunked_trailer. unfold rwf in Hwf. rewrite Hph in Hwf. exact Hwf.
Qed.

(* the delivery protocol: [pre] = bytes consumed so far *)
Theorem feed_trailing_data ds : forall st pending tot pre st' tot' rest,
  rwf st -> s_trailer st = [] -> length pre = tot ->
  feed resp_state resp_parse st pending ds tot = Done st' tot' rest ->
  exists k used,
    tot <= k /\ k <= tot' /\
    firstn tot' (pre ++ pending ++ concat ds) = used /\ length used = tot' /\
    s_trailer st' = skipn k used.
Proof.
  induction ds as [|d ds IH]; intros st pending tot pre st' tot' rest Hwf Htr Hpre H; [discriminate|].
  cbn [feed] in H.
  pose proof (resp_parse_trailer st (pending ++ d) Hwf) as HT.
  pose proof (resp_parse_spec st (pending ++ d) [] Hwf) as HS.
  destruct (resp_parse st (pending ++ d)) as [s1 [c|c|e]]; try discriminate.
  - inversion H; subst st' tot' rest. clear H.
    cbn [trailer_step] in HT. destruct HT as [k [Hk [Hc Ht]]]. rewrite Htr in Ht. cbn [app] in Ht.
    exists (tot + k), (pre ++ firstn c (pending ++ d)).
    split; [lia|]. split; [lia|]. split; [|split].
    + cbn [concat]. rewrite (app_assoc pending d). rewrite <- Hpre.
      rewrite firstn_app. rewrite firstn_all2 by lia.
      replace (length pre + c - length pre) with c by lia.
      rewrite firstn_app_le by exact Hc. reflexivity.
    + rewrite app_length, firstn_length. lia.
    + rewrite Ht. rewrite <- Hpre. rewrite skipn_app. rewrite (skipn_all2 pre) by lia.
      replace (length pre + k - length pre) with k by lia. reflexivity.
  - cbn [trailer_step] in HT. destruct HS as (Hc & Hwf1 & _).
    assert (Htr1 : s_trailer s1 = []) by (rewrite HT; exact Htr).
    assert (Hpre1 : length (pre ++ firstn c (pending ++ d)) = tot + c)
      by (rewrite app_length, firstn_length; lia).
    destruct (IH s1 (skipn c (pending ++ d)) _ _ st' tot' rest Hwf1 Htr1 Hpre1 H)
      as [k [used [H1 [H2 [H3 [H4 H5]]]]]].
    exists k, used. split; [lia|]. split; [exact H2|]. split; [|split; assumption].
    rewrite <- H3. f_equal. cbn [concat]. rewrite <- !app_assoc. f_equal.
    rewrite (app_assoc pending d). rewrite (app_assoc (firstn c (pending ++ d))).
    rewrite firstn_skipn. reflexivity.
Qed.
