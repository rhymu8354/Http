(* CaseEndToEnd.v -- C18 at the level of message bytes: changing ASCII letter case anywhere in
   the header block of a message (names, values, tokens) changes neither the verdict, nor the
   boundary, nor the body / trailing data, nor the start-line fields; the stored header lists
   are equal up to letter case.  The parser states are related by "same fields, headers equal up
   to case", and each phase function keeps two related states related. *)
From Http Require Import Model.Bytes Model.Utf8 Model.Num Model.Headers Model.Request Model.Chunked
     Model.Response Spec.ChunkedGrammar Proofs.BytesLemmas Proofs.HeadersResume Proofs.ReqResume
     Proofs.CaseLemmas Proofs.CaseBytes Proofs.ReqGrammar Proofs.RespGrammar.

Lemma ci_eq_refl s : ci_eq s s.
Proof. reflexivity. Qed.

Lemma remove_header_ci hs hs' n : hdrs_ci hs hs' -> hdrs_ci (remove_header hs n) (remove_header hs' n).
Proof.
  apply (filter_ci (fun a => negb (name_eq a n)) (fun a => negb (name_eq a n))).
  intros a a' Ha. rewrite (name_eq_ci a a' n n Ha eq_refl). reflexivity.
Qed.

Lemma set_header_aux_ci hs hs' n v :
  hdrs_ci hs hs' -> hdrs_ci (set_header_aux hs n v) (set_header_aux hs' n v).
Proof.
  induction 1 as [|h h' hs hs' [H1 H2] Hrest IH]; [constructor|].
  cbn [set_header_aux]. rewrite (name_eq_ci _ _ n n H1 eq_refl).
  destruct (name_eq (fst h') n).
  - constructor; [split; [exact H1|reflexivity]|apply remove_header_ci; exact Hrest].
  - constructor; [split; assumption|exact IH].
Qed.

Lemma set_header_ci hs hs' n v : hdrs_ci hs hs' -> hdrs_ci (set_header hs n v) (set_header hs' n v).
Proof.
  intros H. unfold set_header. rewrite (has_header_ci hs hs' n n H eq_refl).
  destruct (has_header hs' n); [apply set_header_aux_ci; exact H|].
  apply Forall2_app; [exact H|apply hdrs_ci_refl].
Qed.

Theorem dechunk_headers_trailer_ci hs hs' tr tr' body :
  hdrs_ci hs hs' -> hdrs_ci tr tr' ->
  hdrs_ci (dechunk_headers hs tr body) (dechunk_headers hs' tr' body).
Proof.
  intros H Ht. unfold dechunk_headers. cbv zeta.
  assert (H1 : hdrs_ci (hs ++ filter (fun h => negb (is_framing_name (fst h))) tr)
                       (hs' ++ filter (fun h => negb (is_framing_name (fst h))) tr')).
  { apply Forall2_app; [exact H|].
    apply (filter_ci (fun a => negb (is_framing_name a)) (fun a => negb (is_framing_name a))); [|exact Ht].
    intros a a' Ha. unfold is_framing_name. rewrite !(name_eq_ci a a' _ _ Ha eq_refl). reflexivity. }
  rewrite (header_tokens_ci _ _ TRANSFER_ENCODING TRANSFER_ENCODING H1 eq_refl).
  apply remove_header_ci. apply Forall2_app; [|apply hdrs_ci_refl].
  destruct (removelast _); [apply remove_header_ci|apply set_header_ci]; exact H1.
Qed.

Theorem dechunk_headers_ci hs hs' tr body :
  hdrs_ci hs hs' -> hdrs_ci (dechunk_headers hs tr body) (dechunk_headers hs' tr body).
Proof. intros H. apply dechunk_headers_trailer_ci; [exact H|apply hdrs_ci_refl]. Qed.

Lemma block_case_variant lim block block' hs :
  ci_eq block block' -> hdr_parse lim [] block = HComplete hs (length block) ->
  exists hs', hdr_parse lim [] block' = HComplete hs' (length block') /\ hdrs_ci hs hs'.
Proof.
  intros Hc H. pose proof (hdr_parse_ci lim [] [] block block' (hdrs_ci_refl []) Hc) as R.
  rewrite H in R. destruct (hdr_parse lim [] block') as [hs' c'|hs' c'|e']; cbn [hres_ci] in R; try contradiction.
  destruct R as [R1 R2]. exists hs'. rewrite <- R2. rewrite (ci_eq_length _ _ Hc). split; [reflexivity|exact R1].
Qed.

Lemma block_variant_then_rest lim block block' hs :
  ci_eq block block' -> hdr_parse lim [] block = HComplete hs (length block) ->
  exists hs', hdrs_ci hs hs' /\ forall rest,
    hdr_parse lim [] (block' ++ rest) = HComplete hs' (length block) /\
    skipn (length block) (block' ++ rest) = rest.
Proof.
  intros Hc H. destruct (block_case_variant lim block block' hs Hc H) as [hs' [H' Hci]].
  exists hs'. split; [exact Hci|]. intros rest. rewrite (ci_eq_length _ _ Hc).
  split; [exact (proj2 (hdr_parse_complete_app _ _ _ rest _ _ H'))|apply skipn_app_exact].
Qed.

Definition resp_st_ci (st st' : resp_state) : Prop :=
  s_phase st = s_phase st' /\ s_code st = s_code st' /\ s_reason st = s_reason st' /\
  hdrs_ci (s_headers st) (s_headers st') /\ s_body st = s_body st' /\ s_trailer st = s_trailer st'.

Definition resp_res_ci (r r' : resp_state * outcome) : Prop :=
  snd r = snd r' /\ resp_st_ci (fst r) (fst r').

Lemma resp_res_refl r : resp_res_ci r r.
Proof. repeat split. apply hdrs_ci_refl. Qed.

Lemma resp_st_ci_hdrs ph code reason hs hs' body tr :
  hdrs_ci hs hs' ->
  resp_st_ci {| s_phase := ph; s_code := code; s_reason := reason; s_headers := hs;
                s_body := body; s_trailer := tr |}
             {| s_phase := ph; s_code := code; s_reason := reason; s_headers := hs';
                s_body := body; s_trailer := tr |}.
Proof. intros H. repeat split. exact H. Qed.

Lemma rshift_ci k r r' : resp_res_ci r r' -> resp_res_ci (rshift k r) (rshift k r').
Proof.
  destruct r as [st o], r' as [st' o']. intros [Ho Hst]. cbn [fst snd] in Ho, Hst. subst o'.
  destruct o; (split; [reflexivity|exact Hst]).
Qed.

Lemma resp_fixed_ci st st' n buf :
  resp_st_ci st st' -> resp_res_ci (resp_fixed st n buf) (resp_fixed st' n buf).
Proof.
  intros (_ & H2 & H3 & H4 & H5 & H6). unfold resp_fixed. rewrite <- H2, <- H3, <- H5, <- H6. cbv zeta.
  destruct (N.leb _ _); (split; [reflexivity|apply resp_st_ci_hdrs; exact H4]).
Qed.

Lemma resp_chunked_ci st st' cs buf :
  resp_st_ci st st' -> resp_res_ci (resp_chunked st cs buf) (resp_chunked st' cs buf).
Proof.
  intros Hst. pose proof Hst as (_ & H2 & H3 & H4 & H5 & H6). unfold resp_chunked.
  destruct (chunk_decode cs buf) as [cs' [k|k|e]].
  - rewrite <- H2, <- H3, <- H6. split; [reflexivity|].
    apply resp_st_ci_hdrs, dechunk_headers_ci, H4.
  - rewrite <- H2, <- H3, <- H5, <- H6. split; [reflexivity|]. apply resp_st_ci_hdrs, H4.
  - split; [reflexivity|exact Hst].
Qed.

Lemma resp_headers_ci code reason block block' rest hs :
  ci_eq block block' -> hdr_parse None [] block = HComplete hs (length block) ->
  resp_res_ci (resp_headers (after_status_line code reason) (block ++ rest))
              (resp_headers (after_status_line code reason) (block' ++ rest)).
Proof.
  intros Hc HP. destruct (block_variant_then_rest None block block' hs Hc HP) as [hs' [Hci HP']].
  destruct (HP' rest) as [E' Hsk]. unfold resp_headers. cbn [s_headers after_status_line].
  rewrite (proj2 (hdr_parse_complete_app _ _ _ rest _ _ HP)), E', Hsk, skipn_app_exact. cbv zeta.
  destruct (header_value_ci hs hs' CONTENT_LENGTH CONTENT_LENGTH Hci eq_refl) as [|v v' HV].
  - rewrite (has_header_token_ci hs hs' _ _ _ _ Hci eq_refl eq_refl).
    destruct (has_header_token hs' TRANSFER_ENCODING CHUNKED).
    + apply rshift_ci, resp_chunked_ci, resp_st_ci_hdrs, Hci.
    + split; [reflexivity|apply resp_st_ci_hdrs, Hci].
  - rewrite (ci_lift _ parse_dec_lower v v' HV).
    destruct (parse_dec v'); [|apply resp_res_refl].
    apply rshift_ci, resp_fixed_ci, resp_st_ci_hdrs, Hci.
Qed.

Theorem response_case_insensitive l block block' rest hs :
  is_line l -> ci_eq block block' -> hdr_parse None [] block = HComplete hs (length block) ->
  let r := resp_parse resp_init (l ++ CRLF ++ block ++ rest) in
  let r' := resp_parse resp_init (l ++ CRLF ++ block' ++ rest) in
  snd r = snd r' /\ resp_st_ci (fst r) (fst r').
Proof.
  intros Hl Hc HP. cbv zeta. rewrite !(resp_parse_line_form l _ Hl).
  destruct (negb (utf8_valid l)); [apply resp_res_refl|].
  destruct (parse_status_line l) as [[code reason]|er]; [|apply resp_res_refl].
  apply rshift_ci, (resp_headers_ci code reason block block' rest hs Hc HP).
Qed.

Section Req.
  Variable uri : Type.
  Variable uri_parse : bytes -> option uri.
  Notation P := (req_parse uri uri_parse).

  Definition req_st_ci (st st' : req_state uri) : Prop :=
    r_phase st = r_phase st' /\ r_method st = r_method st' /\ r_target st = r_target st' /\
    hdrs_ci (r_headers st) (r_headers st') /\ r_body st = r_body st' /\ r_total st = r_total st'.

  Definition req_res_ci (r r' : req_state uri * outcome) : Prop :=
    snd r = snd r' /\ req_st_ci (fst r) (fst r').

  Lemma req_res_refl r : req_res_ci r r.
  Proof. repeat split. apply hdrs_ci_refl. Qed.

  Lemma req_st_ci_hdrs ph meth tg hs hs' body t :
    hdrs_ci hs hs' ->
    req_st_ci {| r_phase := ph; r_method := meth; r_target := tg; r_headers := hs;
                 r_body := body; r_total := t |}
              {| r_phase := ph; r_method := meth; r_target := tg; r_headers := hs';
                 r_body := body; r_total := t |}.
  Proof. intros H. repeat split. exact H. Qed.

  Lemma shift_ci k r r' : req_res_ci r r' -> req_res_ci (shift uri k r) (shift uri k r').
  Proof.
    destruct r as [st o], r' as [st' o']. intros [Ho Hst]. cbn [fst snd] in Ho, Hst. subst o'.
    destruct o; (split; [reflexivity|exact Hst]).
  Qed.

  (* the max_message_size test on the bytes presented looks at r_total only *)
  Lemma check_presented_ci cfg len r r' : req_res_ci r r' -> req_res_ci (check_presented uri cfg len r) (check_presented uri cfg len r').
  Proof.
    destruct r as [st o], r' as [st' o']. intros [Ho Hst]. cbn [fst snd] in Ho, Hst. subst o'.
    destruct o as [k|k|e]; cbn [check_presented]; try (split; [reflexivity|exact Hst]).
    pose proof Hst as (_ & _ & _ & _ & _ & Ht). rewrite <- Ht.
    destruct (presented_ok _ _ _); [split; [reflexivity|exact Hst]|apply req_res_refl].
  Qed.

  Lemma req_body_ci st st' n buf :
    req_st_ci st st' -> req_res_ci (req_body uri st n buf) (req_body uri st' n buf).
  Proof.
    intros (H1 & H2 & H3 & H4 & H5 & H6). unfold req_body. rewrite <- H1, <- H2, <- H3, <- H5, <- H6. cbv zeta.
    destruct (N.leb _ _); (split; [reflexivity|apply req_st_ci_hdrs; exact H4]).
  Qed.

  Lemma req_headers_ci cfg meth u t block block' rest hs :
    ci_eq block block' -> hdr_parse (hl cfg) [] block = HComplete hs (length block) ->
    req_res_ci (req_headers uri cfg (line_state uri req_init meth u t) (block ++ rest))
               (req_headers uri cfg (line_state uri req_init meth u t) (block' ++ rest)).
  Proof.
    intros Hc HP. destruct (block_case_variant (hl cfg) block block' hs Hc HP) as [hs' [HP' Hci]].
    rewrite !req_headers_form.
    rewrite (strip_cr_block _ _ _ _ rest HP), (strip_cr_block _ _ _ _ rest HP').
    rewrite (proj2 (hdr_parse_complete_app _ _ _ (strip_cr rest) _ _ HP)),
            (proj2 (hdr_parse_complete_app _ _ _ (strip_cr rest) _ _ HP')).
    rewrite <- (ci_eq_length _ _ Hc), skipn_app_exact.
    replace (skipn (length block) (block' ++ rest)) with rest
      by (rewrite (ci_eq_length _ _ Hc); symmetry; apply skipn_app_exact).
    destruct (count_bytes cfg t (N.of_nat (length block))) as [t2|];
      [|apply req_res_refl].
    destruct (header_value_ci hs hs' CONTENT_LENGTH CONTENT_LENGTH Hci eq_refl) as [|v v' HV].
    - split; [reflexivity|apply req_st_ci_hdrs, Hci].
    - rewrite (ci_lift _ parse_dec_lower v v' HV).
      destruct (parse_dec v') as [n|]; [|apply req_res_refl].
      destruct (count_bytes cfg t2 n) as [t3|]; [|apply req_res_refl].
      apply shift_ci, req_body_ci, req_st_ci_hdrs, Hci.
  Qed.

  Theorem request_case_insensitive cfg l block block' rest hs :
    is_line l -> ci_eq block block' -> hdr_parse (hl cfg) [] block = HComplete hs (length block) ->
    let r := P cfg req_init (l ++ CRLF ++ block ++ rest) in
    let r' := P cfg req_init (l ++ CRLF ++ block' ++ rest) in
    snd r = snd r' /\ req_st_ci (fst r) (fst r').
  Proof.
    intros Hl Hc HP. cbv zeta.
    rewrite !(req_parse_line_form uri uri_parse cfg l _ Hl).
    destruct (over_limit (length l) (rl cfg)); [apply req_res_refl|].
    destruct (negb (utf8_valid l)); [apply req_res_refl|].
    destruct (count_bytes cfg 0 (N.of_nat (length l + 2))) as [t|]; [|apply req_res_refl].
    destruct (parse_request_line uri uri_parse l) as [[meth u]|er]; [|apply req_res_refl].
    replace (length (l ++ CRLF ++ block' ++ rest)) with (length (l ++ CRLF ++ block ++ rest))
      by (rewrite !app_length, (ci_eq_length _ _ Hc); reflexivity).
    apply check_presented_ci, shift_ci, (req_headers_ci cfg meth u t block block' rest hs Hc HP).
  Qed.
End Req.
