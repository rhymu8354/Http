(* FeedGeneric.v -- from "one call is resumable" to "every way of cutting the stream into
   deliveries gives the answer of the single call" (used for C01, C02, C05). *)
From Http Require Import Model.Bytes Model.Request Spec.Delivery Proofs.BytesLemmas.

Section Generic.
  Variable state : Type.
  Variable P : state -> bytes -> state * outcome.
  Variable Inv : state -> Prop.
  (* when are two completed parses "the same message"?  (state, bytes consumed so far) *)
  Variable msg_eq : state -> nat -> state -> nat -> Prop.
  Hypothesis msg_eq_refl : forall s c, msg_eq s c s c.
  Hypothesis msg_eq_trans : forall s1 c1 s2 c2 s3 c3,
      msg_eq s1 c1 s2 c2 -> msg_eq s2 c2 s3 c3 -> msg_eq s1 c1 s3 c3.
  Hypothesis msg_eq_shift : forall k s1 c1 s2 c2,
      msg_eq s1 c1 s2 c2 -> msg_eq s1 (k + c1) s2 (k + c2).

  Definition gshift (k : nat) (r : state * outcome) : state * outcome :=
    match r with
    | (st, Complete c) => (st, Complete (k + c))
    | (st, Incomplete c) => (st, Incomplete (k + c))
    | (st, Reject e) => (st, Reject e)
    end.

  Definition goeq (r1 r2 : state * outcome) : Prop :=
    match r1, r2 with
    | (_, Reject e1), (_, Reject e2) => e1 = e2
    | _, _ => r1 = r2
    end.

  Lemma gshift_gshift k1 k2 r : gshift k1 (gshift k2 r) = gshift (k1 + k2) r.
  Proof. destruct r as [s [c|c|e]]; cbn; rewrite ?Nat.add_assoc; reflexivity. Qed.

  Lemma gshift_0 r : gshift 0 r = r.
  Proof. destruct r as [s [c|c|e]]; reflexivity. Qed.

  Lemma goeq_refl r : goeq r r.
  Proof. destruct r as [s [c|c|e]]; reflexivity. Qed.

  Lemma goeq_trans r1 r2 r3 : goeq r1 r2 -> goeq r2 r3 -> goeq r1 r3.
  Proof. destruct r1 as [s1 [?|?|?]], r2 as [s2 [?|?|?]], r3 as [s3 [?|?|?]]; simpl; congruence. Qed.

  Lemma goeq_inv r1 r2 :
    goeq r1 r2 ->
    match r2 with (_, Reject e) => exists s, r1 = (s, Reject e) | _ => r1 = r2 end.
  Proof.
    destruct r1 as [s1 [c1|c1|e1]], r2 as [s2 [c2|c2|e2]]; cbn; intros H;
      try exact H; try discriminate H. subst. eauto.
  Qed.

  Lemma goeq_gshift k r1 r2 : goeq r1 r2 -> goeq (gshift k r1) (gshift k r2).
  Proof.
    intros H. apply goeq_inv in H. destruct r2 as [s2 [c2|c2|e2]]; try (subst; apply goeq_refl).
    destruct H as [s ->]. reflexivity.
  Qed.

  (* Q holds of the state an answer carries, unless the answer is a rejection *)
  Definition unless_rejected (Q : state -> Prop) (r : state * outcome) : Prop :=
    match r with (_, Reject _) => True | (s, _) => Q s end.

  Lemma unless_rejected_gshift Q k r : unless_rejected Q r -> unless_rejected Q (gshift k r).
  Proof. destruct r as [s [c|c|e]]; exact id. Qed.

  Definition resumable : Prop :=
    forall st a b, Inv st ->
      match P st a with
      | (st1, Complete c) =>
          c <= length a /\ exists st1' c', P st (a ++ b) = (st1', Complete c') /\ msg_eq st1 c st1' c'
      | (st1, Incomplete c) =>
          c <= length a /\ Inv st1 /\ goeq (P st (a ++ b)) (gshift c (P st1 (skipn c a ++ b)))
      | (_, Reject e) => exists st' e', P st (a ++ b) = (st', Reject e')
      end.

  Hypothesis Hres : resumable.

  (* same verdict; same message and boundary when accepted; same state, count and pending
     bytes when more input is needed; categories of rejections are not compared *)
  Definition feq (r1 r2 : fres state) : Prop :=
    match r1, r2 with
    | Done s1 t1 _, Done s2 t2 _ => msg_eq s1 t1 s2 t2
    | NeedMore s1 t1 p1, NeedMore s2 t2 p2 => s1 = s2 /\ t1 = t2 /\ p1 = p2
    | Rejected _, Rejected _ => True
    | _, _ => False
    end.

  Lemma feq_refl r : feq r r.
  Proof. destruct r; simpl; auto. Qed.

  Lemma feq_trans r1 r2 r3 : feq r1 r2 -> feq r2 r3 -> feq r1 r3.
  Proof.
    destruct r1, r2, r3; simpl; try tauto.
    - apply msg_eq_trans.
    - intros [-> [-> ->]] [-> [-> ->]]. auto.
  Qed.

  Lemma feed_one st pending x tot :
    feed state P st pending [x] tot =
    match P st (pending ++ x) with
    | (st', Complete c) => Done st' (tot + c) (skipn c (pending ++ x))
    | (st', Incomplete c) => NeedMore st' (tot + c) (skipn c (pending ++ x))
    | (_, Reject e) => Rejected e
    end.
  Proof. simpl. destruct (P st (pending ++ x)) as [st' [c|c|e]]; reflexivity. Qed.

  Theorem feed_concat ds :
    ds <> [] -> forall st pending tot, Inv st ->
    feq (feed state P st pending ds tot) (feed state P st pending [concat ds] tot).
  Proof.
    induction ds as [|d ds' IH]; intros Hne st pending tot Hinv; [congruence|].
    rewrite feed_one. cbn [concat]. rewrite app_assoc.
    cbn [feed].
    pose proof (Hres st (pending ++ d) (concat ds') Hinv) as HS.
    destruct (P st (pending ++ d)) as [st1 [c|c|e]] eqn:E1.
    - destruct HS as [Hc [st1' [c' [HS Hm]]]]. rewrite HS. simpl.
      apply msg_eq_shift. exact Hm.
    - destruct HS as [Hc [Hinv1 HS]].
      destruct ds' as [|d2 ds2].
      + cbn [concat] in *. rewrite app_nil_r in *. rewrite E1. simpl. auto.
      + assert (Hne' : d2 :: ds2 <> []) by discriminate.
        specialize (IH Hne' st1 (skipn c (pending ++ d)) (tot + c) Hinv1).
        eapply feq_trans; [exact IH|]. clear IH.
        rewrite feed_one.
        set (X := concat (d2 :: ds2)) in *. apply goeq_inv in HS.
        destruct (P st1 (skipn c (pending ++ d) ++ X)) as [st2 [c2|c2|e2]]; cbn [gshift] in HS.
        * rewrite HS. simpl. rewrite Nat.add_assoc. apply msg_eq_refl.
        * rewrite HS. simpl. rewrite Nat.add_assoc. split; [reflexivity|]. split; [reflexivity|].
          symmetry. apply skipn_resumed. exact Hc.
        * destruct HS as [s ->]. exact I.
    - destruct HS as [st' [e' HS]]. rewrite HS. simpl. exact I.
  Qed.
End Generic.

Arguments unless_rejected {state} Q r.
