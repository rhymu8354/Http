(* HuffmanGen.v -- the symbols of a compressed block under ANY pair of tables the decoder accepts:
   literals and matches in the canonical codes of the two tables decode to RFC 1951's copy semantics.
   The fixed code of RFC 1951 3.2.6 is the case of the model's two fixed tables.
   Names with a g (gcode, gsym_ok, gblock_bits, dec_g) are the general-table forms of what
   HuffmanFixed.v and HuffmanFixedLZ.v define for the fixed code (fixed_code, fsym_ok, block_bits). *)
From Coq Require Import List NArith Arith Lia.
From Http Require Import Model.Bytes Model.Inflate Proofs.InflateLocal Proofs.HuffmanCanon Proofs.HuffmanKraft
     Proofs.HuffmanFixed Proofs.CopyMatch Proofs.HuffmanFixedLZ.
Import ListNotations.

Definition clen (lens : list N) (sym : nat) : nat := N.to_nat (nth sym lens 0%N).
Definition has_code (lens : list N) (sym : nat) : Prop :=
  sym < length lens /\ 1 <= clen lens sym /\ clen lens sym <= 15.
Definition gcode (lens : list N) (sym : nat) : list bool := code_bits lens sym (clen lens sym).

(* dec_sym_accepted_table over has_code *)
Lemma dec_g b lens sym s t :
  table_ok b (mk_table lens) = true -> has_code lens sym ->
  bits_of s = gcode lens sym ++ t ->
  exists s', dec_sym (mk_table lens) s = Ok sym s' /\ bits_of s' = t.
Proof.
  intros Hok [Hl [H1 H2]] Hb.
  apply (dec_sym_accepted_table b lens sym (clen lens sym) s t Hok H1 H2); [|exact Hb].
  unfold clen. rewrite N2Nat.id. apply nth_error_nth'. exact Hl.
Qed.

Lemma gcode_length lens sym : length (gcode lens sym) = clen lens sym.
Proof. apply msb_bits_length. Qed.

Section Tables.
  Variables litlens distlens : list N.
  Hypothesis lit_ok : table_ok false (mk_table litlens) = true.
  Hypothesis dist_ok : table_ok false (mk_table distlens) = true.

  Definition gsym_ok (x : fsym) : Prop :=
    match x with
    | FLit b => (b < 256)%N /\ has_code litlens (N.to_nat b)
    | FMatch lsym e dsym e2 =>
        257 <= lsym /\ lsym <= 285 /\ has_code litlens lsym /\
        (e < 2 ^ N.of_nat (nth (lsym - 257)%nat LENGTH_EXTRA 0%nat))%N /\
        dsym <= 29 /\ has_code distlens dsym /\
        (e2 < 2 ^ N.of_nat (nth dsym DIST_EXTRA 0%nat))%N
    end.

  Definition gsym_bits (x : fsym) : list bool :=
    match x with
    | FLit b => gcode litlens (N.to_nat b)
    | FMatch lsym e dsym e2 =>
        gcode litlens lsym ++ lsb_bits (nth (lsym - 257) LENGTH_EXTRA 0) e
        ++ gcode distlens dsym ++ lsb_bits (nth dsym DIST_EXTRA 0) e2
    end.

  Fixpoint gblock_bits (xs : list fsym) : list bool :=
    match xs with
    | [] => gcode litlens 256
    | x :: t => gsym_bits x ++ gblock_bits t
    end.

  Lemma codes_gsymbols xs : forall f out s t,
      Forall gsym_ok xs -> has_code litlens 256 -> length xs < f ->
      bits_of s = gblock_bits xs ++ t ->
      exists s', codes f (mk_table litlens) (mk_table distlens) out s = Ok (fold_left fsym_apply xs out) s'
                 /\ bits_of s' = t.
  Proof.
    induction xs as [|x xs IH]; intros [|f] out s t Hx Heob Hf Hb; try (inversion Hf; fail);
      rewrite codes_S; cbn [gblock_bits] in Hb.
    - destruct (dec_g false litlens 256 s t lit_ok Heob Hb) as [s' [D B]].
      exists s'. split; [exact (codes_body_end _ _ _ _ _ _ _ D eq_refl) | exact B].
    - apply Forall_cons_iff in Hx. destruct Hx as [Hx1 Hx]. apply Nat.succ_lt_mono in Hf. cbn [fold_left].
      destruct x as [b | lsym e dsym e2]; cbn [gsym_bits] in Hb; rewrite <- ?app_assoc in Hb.
      + destruct Hx1 as [Hb256 Hc].
        destruct (dec_g false litlens (N.to_nat b) s _ lit_ok Hc Hb) as [s1 [D B1]].
        rewrite (codes_body_literal _ _ _ _ _ _ _ D), N2Nat.id by lia.
        exact (IH f (b :: out) s1 t Hx Heob Hf B1).
      + destruct Hx1 as [L1 [L2 [Hc [He [D1 [Hd He2]]]]]].
        destruct (dec_g false litlens lsym s _ lit_ok Hc Hb) as [s1 [D B1]].
        destruct (getbits_lsb _ _ _ _ B1 He) as [s2 [G B2]].
        destruct (dec_g false distlens dsym s2 _ dist_ok Hd B2) as [s3 [Dd B3]].
        destruct (getbits_lsb _ _ _ _ B3 He2) as [s4 [G2 B4]].
        rewrite (codes_body_match _ _ _ _ _ _ _ D _ _ _ _ _ _ L1 L2 G Dd D1 G2), copy_match_fast_is_rfc_copy.
        exact (IH f _ s4 t Hx Heob Hf B4).
  Qed.

  Lemma gblock_bits_length xs : Forall gsym_ok xs -> length xs <= length (gblock_bits xs).
  Proof.
    induction 1 as [|x xs Hx _ IH]; [apply Nat.le_0_l|]. cbn [gblock_bits length].
    rewrite app_length. apply (Nat.add_le_mono 1 _ _ _); [|exact IH].
    destruct x as [b | lsym e dsym e2]; cbn [gsym_bits]; rewrite ?app_length, gcode_length.
    - apply Hx.
    - destruct Hx as [_ [_ [[_ [H _]] _]]]. lia.
  Qed.
End Tables.

Lemma fixed_lit_ok : table_ok false fixed_lit = true.
Proof. vm_compute. reflexivity. Qed.

Lemma fixed_dist_ok : table_ok false fixed_dist = true.
Proof. vm_compute. reflexivity. Qed.

Lemma fixed_len_table : forallb (fun sym => Nat.eqb (clen fixed_lit_lens sym) (fixed_len sym)) (seq 0 288) = true.
Proof. vm_compute. reflexivity. Qed.

Lemma fixed_gcode sym : sym < 288 -> has_code fixed_lit_lens sym /\ gcode fixed_lit_lens sym = fixed_code sym.
Proof.
  intros H. assert (E : clen fixed_lit_lens sym = fixed_len sym).
  { apply Nat.eqb_eq, (proj1 (forallb_forall _ _) fixed_len_table), in_seq.
    split; [apply Nat.le_0_l | exact H]. }
  unfold has_code, gcode. rewrite E. split; [|reflexivity]. split; [exact H|]. unfold fixed_len.
  destruct (Nat.ltb sym 144); [|destruct (Nat.ltb sym 256); [|destruct (Nat.ltb sym 280)]];
    split; repeat constructor.
Qed.

Lemma fixed_gdcode dsym : dsym < 32 -> has_code fixed_dist_lens dsym /\ gcode fixed_dist_lens dsym = fixed_dcode dsym.
Proof.
  intros H. assert (E : clen fixed_dist_lens dsym = 5).
  { unfold clen. rewrite (nth_error_nth _ _ _ (nth_error_repeat 5%N H)). reflexivity. }
  unfold has_code, gcode. rewrite E. split; [|reflexivity]. split; [exact H | split; repeat constructor].
Qed.

Lemma fixed_gsym x : fsym_ok x ->
  gsym_ok fixed_lit_lens fixed_dist_lens x /\ gsym_bits fixed_lit_lens fixed_dist_lens x = fsym_bits x.
Proof.
  destruct x as [b | lsym e dsym e2]; cbn [fsym_ok gsym_ok gsym_bits fsym_bits].
  - intros Hb. destruct (fixed_gcode (N.to_nat b)) as [Hc E]; [lia|]. exact (conj (conj Hb Hc) E).
  - intros [L1 [L2 [He [D1 He2]]]].
    destruct (fixed_gcode lsym) as [Hc E]; [apply (Nat.le_lt_trans _ _ _ L2), Nat.ltb_lt; reflexivity|].
    destruct (fixed_gdcode dsym) as [Hd Ed]; [apply (Nat.le_lt_trans _ _ _ D1), Nat.ltb_lt; reflexivity|].
    split; [exact (conj L1 (conj L2 (conj Hc (conj He (conj D1 (conj Hd He2)))))) | rewrite E, Ed; reflexivity].
Qed.

Lemma fixed_eob : has_code fixed_lit_lens 256 /\ gcode fixed_lit_lens 256 = fixed_code 256.
Proof. apply fixed_gcode, Nat.ltb_lt. reflexivity. Qed.

Lemma fixed_gblock xs : Forall fsym_ok xs ->
  Forall (gsym_ok fixed_lit_lens fixed_dist_lens) xs /\ gblock_bits fixed_lit_lens fixed_dist_lens xs = block_bits xs.
Proof.
  induction 1 as [|x xs Hx _ [IH1 IH2]]; cbn [gblock_bits block_bits].
  - split; [constructor | apply fixed_eob].
  - destruct (fixed_gsym x Hx) as [Hg E]. rewrite E, IH2. split; [constructor; assumption | reflexivity].
Qed.

Lemma codes_symbols xs f out s t :
  Forall fsym_ok xs -> length xs < f ->
  bits_of s = block_bits xs ++ t ->
  exists s', codes f fixed_lit fixed_dist out s = Ok (fold_left fsym_apply xs out) s' /\ bits_of s' = t.
Proof.
  intros Hx Hf Hb. destruct (fixed_gblock xs Hx) as [Hg E]. rewrite <- E in Hb.
  exact (codes_gsymbols _ _ fixed_lit_ok fixed_dist_ok xs f out s t Hg (proj1 fixed_eob) Hf Hb).
Qed.

Lemma block_bits_length xs : Forall fsym_ok xs -> length xs <= length (block_bits xs).
Proof.
  intros Hx. destruct (fixed_gblock xs Hx) as [Hg <-]. exact (gblock_bits_length _ _ xs Hg).
Qed.
