(* InflateTop.v -- consequences of locality for the three stream decoders over bytes:
   what follows a stream does not influence its decoding, truncated streams are refused,
   success pins the stored checksum to the returned content.

   The parsers over whole bytes (the gzip member header, the containers) are again sequences of
   smaller ones, so their locality (blocal) comes from a sequencing lemma as in InflateLocal.v;
   here a later stage may look at the whole input (the header CRC does). *)
From Coq Require Import List NArith Arith Bool Lia.
From Http Require Import Model.Bytes Model.Inflate Proofs.InflateLocal.
Import ListNotations.

Lemma sprefix_length c' c : sprefix c' c -> length c' < length c.
Proof.
  intros [t [Ht E]]. subst c. rewrite app_length. destruct t; [contradiction|]. simpl. lia.
Qed.

Lemma sprefix_of_length c y t : t <> [] -> sprefix c (c ++ t ++ y).
Proof. intros Ht. exists (t ++ y). split; [|reflexivity]. destruct t; [contradiction|discriminate]. Qed.

Lemma fuel_for_le p b : length p <= length b -> fuel_for p <= fuel_for b.
Proof. unfold fuel_for. lia. Qed.

Lemma firstn_app_len {A} (a b : list A) n : length a = n -> firstn n (a ++ b) = a.
Proof. intros H. subst n. rewrite firstn_app, Nat.sub_diag, firstn_all. simpl. apply app_nil_r. Qed.

Lemma skipn_app_len {A} (a b : list A) n : length a = n -> skipn n (a ++ b) = b.
Proof. intros H. subst n. rewrite skipn_app, Nat.sub_diag, skipn_all. reflexivity. Qed.

Definition blocal {A} (p : bytes -> res A) : Prop :=
  forall b a cur r, p b = Ok a (cur, r) ->
    cur = [] /\ exists h, b = h ++ r /\
      (forall y, p (h ++ y) = Ok a ([], y)) /\
      (forall h', sprefix h' h -> p h' = Eof).

Lemma blocal_ext {A} (p q : bytes -> res A) : (forall b, p b = q b) -> blocal q -> blocal p.
Proof.
  intros E Hq b a cur r H. rewrite E in H. destruct (Hq _ _ _ _ H) as [Hc [h [R [X T]]]].
  split; [exact Hc|]. exists h. split; [exact R|]. split; intros; rewrite E; auto.
Qed.

Lemma blocal_ret {A} (a : A) : blocal (fun b => Ok a ([], b)).
Proof.
  intros b a' cur r H. inversion H; subst. split; [reflexivity|].
  exists []. split; [reflexivity|]. split; [reflexivity|].
  intros h' Hh. destruct (sprefix_nil_r _ Hh).
Qed.

Lemma blocal_bad {A} : blocal (fun _ => @Bad A).
Proof. intros b a cur r H. discriminate. Qed.

(* the later stage k sees, beside what the first left, the whole input b = h ++ r *)
Lemma blocal_seq {A B} (p : bytes -> res A) (k : bytes -> A -> list bool -> bytes -> res B) :
  blocal p ->
  (forall h a, p h = Ok a ([], []) -> blocal (fun r => k (h ++ r) a [] r)) ->
  blocal (fun b => match p b with Ok a (cur, r) => k b a cur r | Eof => Eof | Bad => Bad end).
Proof.
  intros Hp Hk b c cur r H. destruct (p b) as [a [cur1 r1]| |] eqn:E; try discriminate.
  destruct (Hp _ _ _ _ E) as [-> [h [-> [X T]]]].
  pose proof (X []) as X0. rewrite app_nil_r in X0.
  destruct (Hk h a X0 _ _ _ _ H) as [-> [h2 [-> [X2 T2]]]]. split; [reflexivity|].
  exists (h ++ h2). split; [apply app_assoc|]. split.
  - intros y. rewrite <- app_assoc, X. apply X2.
  - intros h' Hh. destruct (sprefix_app_inv _ _ _ Hh) as [H1 | [q [-> Hq]]].
    + rewrite (T _ H1). reflexivity.
    + rewrite X. apply T2. exact Hq.
Qed.

Lemma blocal_cons {A} (p : bytes -> res A) :
  p [] = Eof -> (forall x, blocal (fun t => p (x :: t))) -> blocal p.
Proof.
  intros H0 Hk [|x t] a cur r H; [rewrite H0 in H; discriminate|].
  destruct (Hk x _ _ _ _ H) as [E [h [-> [X T]]]]. split; [exact E|].
  exists (x :: h). split; [reflexivity|]. split; [exact X|].
  intros h' [u [Hu Eu]]. destruct h' as [|z h']; [exact H0|]. injection Eu as -> Eu.
  apply T. exists u. split; assumption.
Qed.

(* the first n bytes, as the model takes them: has_prefix_len, firstn, skipn *)
Definition take (n : nat) (b : bytes) : res bytes :=
  if has_prefix_len n b then Ok (firstn n b) ([], skipn n b) else Eof.

Lemma take_app n (a y : bytes) : length a = n -> take n (a ++ y) = Ok a ([], y).
Proof.
  intros L. unfold take, has_prefix_len. rewrite (firstn_app_len _ _ _ L), (skipn_app_len _ _ _ L).
  replace (Nat.leb n (length (a ++ y))) with true; [reflexivity|].
  symmetry. apply Nat.leb_le. rewrite app_length. lia.
Qed.

Lemma take_inv n b a cur r : take n b = Ok a (cur, r) -> length a = n /\ b = a ++ r /\ cur = [].
Proof.
  unfold take, has_prefix_len. destruct (Nat.leb n (length b)) eqn:E; [|discriminate].
  intros H. inversion H; subst. apply Nat.leb_le in E.
  split; [apply firstn_length_le; exact E|]. split; [symmetry; apply firstn_skipn | reflexivity].
Qed.

Lemma blocal_take n : blocal (take n).
Proof.
  intros b a cur r H. destruct (take_inv _ _ _ _ _ H) as [L [-> ->]]. split; [reflexivity|].
  exists a. split; [reflexivity|]. split; [intros y; apply take_app; exact L|].
  intros h' Hh. apply sprefix_length in Hh. unfold take, has_prefix_len.
  replace (Nat.leb n (length h')) with false; [reflexivity|]. symmetry. apply Nat.leb_gt. lia.
Qed.

Lemma blocal_take_then {B} n (k : bytes -> list bool -> bytes -> res B) :
  (forall a, length a = n -> blocal (k a [])) ->
  blocal (fun b => match take n b with Ok a (cur, r) => k a cur r | Eof => Eof | Bad => Bad end).
Proof.
  intros Hk. apply (blocal_seq (take n) (fun _ => k)); [apply blocal_take|].
  intros h a H. apply Hk. apply take_inv in H. apply H.
Qed.

Lemma inflate_fuel_local f : blocal (inflate_fuel f).
Proof.
  intros b out cur rest. unfold inflate_fuel. intros H.
  destruct (blocks f [] ([], b)) as [o [cur1 rest1]| |] eqn:E; try discriminate.
  inversion H; subst. clear H.
  pose proof (blocks_aligned _ _ _ _ _ _ E) as Hc. subst cur. split; [reflexivity|].
  destruct (local_blocks f [] _ _ _ _ _ E) as [c [R [X T]]].
  exists c. split; [exact R|]. split.
  - intros y. rewrite X. reflexivity.
  - intros c' Hc. rewrite (T _ Hc). reflexivity.
Qed.

Lemma inflate_fuel_mono f f' b out s :
  f <= f' -> inflate_fuel f b = Ok out s -> inflate_fuel f' b = Ok out s.
Proof.
  unfold inflate_fuel. intros Hf H.
  destruct (blocks f [] ([], b)) as [o s1| |] eqn:E; try discriminate.
  rewrite (blocks_mono_le _ _ _ Hf _ _ _ E). exact H.
Qed.

Lemma strict_prefix_refused (pf : nat -> bytes -> res bytes) :
  (forall f, blocal (pf f)) ->
  (forall f f' b out s, f <= f' -> pf f b = Ok out s -> pf f' b = Ok out s) ->
  forall b out, pf (fuel_for b) b = Ok out ([], []) ->
  forall p, sprefix p b -> to_option (pf (fuel_for p) p) = None.
Proof.
  intros Hl Hm b out H p Hp.
  destruct (pf (fuel_for p) p) as [o s| |] eqn:E; try reflexivity. exfalso.
  apply (Hm _ (fuel_for b)) in E; [|apply fuel_for_le; apply sprefix_length in Hp; lia].
  destruct (Hl _ _ _ _ _ H) as [_ [h [Eb [_ T]]]]. rewrite app_nil_r in Eb. subst h.
  rewrite (T _ Hp) in E. discriminate.
Qed.

Theorem inflate_raw_truncated b out :
  inflate_fuel (fuel_for b) b = Ok out ([], []) ->
  forall p, sprefix p b -> inflate_raw_model p = None.
Proof. exact (strict_prefix_refused inflate_fuel inflate_fuel_local inflate_fuel_mono b out). Qed.

Theorem inflate_raw_ignores_tail f b out rest :
  inflate_fuel f b = Ok out ([], rest) ->
  exists c, b = c ++ rest /\ forall y, inflate_fuel f (c ++ y) = Ok out ([], y).
Proof.
  intros H. destruct (inflate_fuel_local _ _ _ _ _ H) as [_ [c [R [X _]]]]. exists c. split; assumption.
Qed.

(* The zlib and gzip decoders: a header parser, the raw stream, then n trailer bytes that must
   pass a check against the output. *)
Section Container.
  Variable hdr : bytes -> res unit.
  Variable n : nat.
  Variable chk : bytes -> bytes -> bool.
  Hypothesis Hhdr : blocal hdr.

  Definition container (f : nat) (b : bytes) : res bytes :=
    match hdr b with
    | Ok _ (_, body) =>
        match inflate_fuel f body with
        | Ok out (cur, rest) =>
            match take n rest with
            | Ok foot (_, r) => if chk foot out then Ok out (cur, r) else Bad
            | Eof => Eof
            | Bad => Bad
            end
        | Eof => Eof
        | Bad => Bad
        end
    | Eof => Eof
    | Bad => Bad
    end.

  Lemma container_local f : blocal (container f).
  Proof.
    apply blocal_seq; [exact Hhdr|]. intros _ _ _.
    apply blocal_seq; [apply inflate_fuel_local|].
    intros _ out _. apply blocal_take_then. intros foot _.
    destruct (chk foot out); [apply blocal_ret | apply blocal_bad].
  Qed.

  Lemma container_mono f f' b out s :
    f <= f' -> container f b = Ok out s -> container f' b = Ok out s.
  Proof.
    unfold container. intros Hf H. destruct (hdr b) as [u [hc body]| |]; try discriminate.
    destruct (inflate_fuel f body) as [o [cur1 rest1]| |] eqn:E; try discriminate.
    rewrite (inflate_fuel_mono _ _ _ _ _ Hf E). exact H.
  Qed.

  Lemma container_checks f b out cur rest :
    container f b = Ok out (cur, rest) ->
    exists pre foot, b = pre ++ foot ++ rest /\ length foot = n /\ chk foot out = true /\
      forall foot' y, length foot' = n -> chk foot' out = false -> container f (pre ++ foot' ++ y) = Bad.
  Proof.
    unfold container. intros H. destruct (hdr b) as [u [hc body]| |] eqn:Eh; try discriminate.
    destruct (inflate_fuel f body) as [o [cur1 rest1]| |] eqn:E; try discriminate.
    destruct (take n rest1) as [foot [c2 r]| |] eqn:Et; try discriminate.
    destruct (chk foot o) eqn:Ec; try discriminate. inversion H; subst o cur1 r. clear H.
    destruct (Hhdr _ _ _ _ Eh) as [_ [h [-> [Xh _]]]].
    destruct (inflate_fuel_local _ _ _ _ _ E) as [_ [c [-> [X _]]]].
    destruct (take_inv _ _ _ _ _ Et) as [L [-> _]].
    exists (h ++ c), foot. split; [apply app_assoc|]. split; [exact L|]. split; [exact Ec|].
    intros foot' y L' Ec'. rewrite <- app_assoc, Xh, X, (take_app _ _ _ L'), Ec'. reflexivity.
  Qed.
End Container.

Definition zlib_hdr (b : bytes) : res unit :=
  match b with
  | cmf :: flg :: body => if zlib_header_ok cmf flg then hok body else Bad
  | _ => Eof
  end.

Lemma zlib_hdr_local : blocal zlib_hdr.
Proof.
  apply blocal_cons; [reflexivity|]. intros cmf. apply blocal_cons; [reflexivity|]. intros flg.
  cbn [zlib_hdr]. destruct (zlib_header_ok cmf flg); [apply (blocal_ret tt) | apply blocal_bad].
Qed.

Definition zlib_chk (a4 out : bytes) : bool := N.eqb (be32 a4) (adler32 out).

Lemma inflate_zlib_fuel_eq f b : inflate_zlib_fuel f b = container zlib_hdr 4 zlib_chk f b.
Proof.
  unfold inflate_zlib_fuel, container, zlib_hdr, take, zlib_chk. destruct b as [|cmf [|flg body]]; try reflexivity.
  destruct (zlib_header_ok cmf flg); [|reflexivity]. cbv beta iota delta [hok].
  destruct (inflate_fuel f body) as [out [cur rest]| |]; try reflexivity.
  destruct (has_prefix_len 4 rest); reflexivity.
Qed.

(* success pins the stored Adler-32; altering it (only) makes the decode fail, whatever follows *)
Theorem zlib_checks f b out cur rest :
  inflate_zlib_fuel f b = Ok out (cur, rest) ->
  exists pre a4, b = pre ++ a4 ++ rest /\ length a4 = 4 /\ be32 a4 = adler32 out /\
    forall a4' y, length a4' = 4 -> be32 a4' <> be32 a4 -> inflate_zlib_fuel f (pre ++ a4' ++ y) = Bad.
Proof.
  rewrite inflate_zlib_fuel_eq. intros H.
  destruct (container_checks _ _ _ zlib_hdr_local _ _ _ _ _ H) as [pre [a4 [Eb [L [Hc Hf]]]]].
  apply N.eqb_eq in Hc. exists pre, a4. split; [exact Eb|]. split; [exact L|]. split; [exact Hc|].
  intros a4' y L' Hne. rewrite inflate_zlib_fuel_eq. apply Hf; [exact L'|].
  apply N.eqb_neq. rewrite <- Hc. exact Hne.
Qed.

Theorem zlib_altered_check_fails f b out cur rest :
  inflate_zlib_fuel f b = Ok out (cur, rest) ->
  exists pre a4, b = pre ++ a4 ++ rest /\ length a4 = 4 /\
    forall a4' y, length a4' = 4 -> be32 a4' <> be32 a4 -> inflate_zlib_fuel f (pre ++ a4' ++ y) = Bad.
Proof.
  intros H. destruct (zlib_checks _ _ _ _ _ H) as [pre [a4 [Eb [L [_ Hf]]]]]. exists pre, a4. auto.
Qed.

Theorem inflate_zlib_truncated b out :
  inflate_zlib_fuel (fuel_for b) b = Ok out ([], []) ->
  forall p, sprefix p b -> inflate_zlib_model p = None.
Proof.
  apply (strict_prefix_refused inflate_zlib_fuel).
  - intros f. exact (blocal_ext _ _ (inflate_zlib_fuel_eq f) (container_local _ _ _ zlib_hdr_local f)).
  - intros f f' b' o s. rewrite !inflate_zlib_fuel_eq. apply container_mono.
Qed.

Lemma blocal_skip_to_nul : forall n, blocal (skip_to_nul n).
Proof.
  induction n as [|n IH]; (apply blocal_cons; [reflexivity|]); intros x; cbn [skip_to_nul];
    (destruct (N.eqb x 0); [apply (blocal_ret tt)|]).
  - apply blocal_bad.
  - exact IH.
Qed.

Lemma blocal_gz_extra flags : blocal (gz_extra flags).
Proof.
  unfold gz_extra. destruct (flag_set flags FEXTRA); [|apply (blocal_ret tt)].
  apply (blocal_ext _ (fun r => match take 2 r with
                                | Ok a (_, r1) => match take (N.to_nat (le16 a)) r1 with
                                                  | Ok _ (_, r2) => hok r2 | Eof => Eof | Bad => Bad end
                                | Eof => Eof | Bad => Bad end)).
  - intros r. unfold take. destruct (has_prefix_len 2 r); [|reflexivity].
    cbv beta iota zeta delta [negb]. destruct (has_prefix_len _ (skipn 2 r)); reflexivity.
  - apply blocal_take_then. intros a _.
    apply blocal_take_then. intros _ _. apply (blocal_ret tt).
Qed.

Lemma blocal_gz_string flags bit : blocal (gz_string flags bit).
Proof. unfold gz_string. destruct (flag_set flags bit); [apply blocal_skip_to_nul | apply (blocal_ret tt)]. Qed.

(* the header CRC covers the bytes before it: all of the input but what is left *)
Lemma blocal_gz_hcrc flags pre : blocal (fun r => gz_hcrc flags (pre ++ r) r).
Proof.
  unfold gz_hcrc. destruct (flag_set flags FHCRC); [|apply (blocal_ret tt)].
  apply (blocal_ext _ (fun r => match take 2 r with
                                | Ok a (_, r1) => if N.eqb (le16 a) (crc32 pre mod 65536) then hok r1 else Bad
                                | Eof => Eof | Bad => Bad end)).
  - intros r. rewrite app_length, Nat.add_sub, (firstn_app_len pre r _ eq_refl). unfold take. destruct (has_prefix_len 2 r); reflexivity.
  - apply blocal_take_then. intros a _.
    destruct (N.eqb _ _); [apply (blocal_ret tt) | apply blocal_bad].
Qed.

Definition magic_ok (b : bytes) : bool :=
  (N.eqb (nth 0 b 0%N) 31 && N.eqb (nth 1 b 0%N) 139 && N.eqb (nth 2 b 0%N) 8 && N.ltb (nth 3 b 0%N) 32)%bool.

Lemma gzip_header_local : blocal gzip_header.
Proof.
  (* the parser with its length test written as `take 10`, so that it is a sequence of stages *)
  apply (blocal_ext _ (fun b => match take 10 b with
                                | Ok _ (_, t) =>
                                    if negb (magic_ok b) then Bad
                                    else match gz_extra (nth 3 b 0%N) t with
                                         | Ok _ (_, r1) =>
                                           match gz_string (nth 3 b 0%N) FNAME r1 with
                                           | Ok _ (_, r2) =>
                                             match gz_string (nth 3 b 0%N) FCOMMENT r2 with
                                             | Ok _ (_, r3) => gz_hcrc (nth 3 b 0%N) b r3
                                             | Eof => Eof | Bad => Bad end
                                           | Eof => Eof | Bad => Bad end
                                         | Eof => Eof | Bad => Bad end
                                | Eof => Eof | Bad => Bad end)).
  { intros b. unfold gzip_header, take. destruct (has_prefix_len 10 b); reflexivity. }
  apply blocal_seq; [apply blocal_take|]. intros h a H.
  (* the ten fixed bytes are known, so the tests on them no longer depend on what follows *)
  destruct (take_inv _ _ _ _ _ H) as [L [E _]]. rewrite app_nil_r in E. subst a.
  destruct h as [|x0 [|x1 [|x2 [|x3 [|x4 [|x5 [|x6 [|x7 [|x8 [|x9 [|]]]]]]]]]]]; try discriminate.
  unfold magic_ok. cbn [app nth]. destruct (negb _); [apply blocal_bad|].
  apply blocal_seq; [apply blocal_gz_extra|]. intros h1 _ _.
  apply blocal_seq; [apply blocal_gz_string|]. intros h2 _ _.
  apply blocal_seq; [apply blocal_gz_string|]. intros h3 _ _.
  refine (blocal_ext _ _ _ (blocal_gz_hcrc x3 ([x0; x1; x2; x3; x4; x5; x6; x7; x8; x9] ++ h1 ++ h2 ++ h3))).
  intros r. rewrite <- !app_assoc. reflexivity.
Qed.

Definition M32 : N := 4294967296%N.

Definition gzip_chk (foot out : bytes) : bool :=
  (N.eqb (le32 (firstn 4 foot)) (crc32 out)
   && N.eqb (le32 (skipn 4 foot)) (N.of_nat (length out) mod M32))%bool.

Lemma gunzip_fuel_eq f b : gunzip_fuel f b = container gzip_header 8 gzip_chk f b.
Proof.
  unfold gunzip_fuel, container, take, gzip_chk, M32. destruct (gzip_header b) as [u [hc body]| |]; try reflexivity.
  destruct (inflate_fuel f body) as [out [cur rest]| |]; try reflexivity.
  destruct (has_prefix_len 8 rest); [|reflexivity].
  rewrite firstn_firstn, (firstn_skipn_comm 4 4 rest). reflexivity.
Qed.

(* success pins the stored CRC-32 and length; altering either (only) makes the decode fail *)
Theorem gunzip_checks f b out cur rest :
  gunzip_fuel f b = Ok out (cur, rest) ->
  exists pre foot, b = pre ++ foot ++ rest /\ length foot = 8 /\
    le32 (firstn 4 foot) = crc32 out /\ le32 (skipn 4 foot) = (N.of_nat (length out) mod M32)%N /\
    forall foot' y, length foot' = 8 ->
      le32 (firstn 4 foot') <> le32 (firstn 4 foot) \/ le32 (skipn 4 foot') <> le32 (skipn 4 foot) ->
      gunzip_fuel f (pre ++ foot' ++ y) = Bad.
Proof.
  rewrite gunzip_fuel_eq. intros H.
  destruct (container_checks _ _ _ gzip_header_local _ _ _ _ _ H) as [pre [foot [Eb [L [Hc Hf]]]]].
  apply andb_true_iff in Hc. destruct Hc as [C1 C2]. apply N.eqb_eq in C1, C2.
  exists pre, foot. split; [exact Eb|]. split; [exact L|]. split; [exact C1|]. split; [exact C2|].
  intros foot' y L' Hne. rewrite gunzip_fuel_eq. apply Hf; [exact L'|].
  apply andb_false_iff. rewrite !N.eqb_neq, <- C1, <- C2. exact Hne.
Qed.

Theorem gunzip_truncated b out :
  gunzip_fuel (fuel_for b) b = Ok out ([], []) ->
  forall p, sprefix p b -> gunzip_model p = None.
Proof.
  apply (strict_prefix_refused gunzip_fuel).
  - intros f. exact (blocal_ext _ _ (gunzip_fuel_eq f) (container_local _ _ _ gzip_header_local f)).
  - intros f f' b' o s. rewrite !gunzip_fuel_eq. apply container_mono.
Qed.

(* a member whose ten fixed bytes fail the signature, method or flag test (magic_ok) is refused *)
Theorem gunzip_bad_magic b : magic_ok b = false -> gunzip_model b = None.
Proof.
  intros H. unfold gunzip_model, gunzip_fuel, gzip_header.
  destruct (has_prefix_len 10 b); cbn [negb]; [|reflexivity].
  fold (magic_ok b). rewrite H. reflexivity.
Qed.

Theorem gunzip_bad_signature b :
  nth 0 b 0%N <> 31%N \/ nth 1 b 0%N <> 139%N -> gunzip_model b = None.
Proof.
  intros H. apply gunzip_bad_magic. unfold magic_ok.
  destruct H as [H|H]; apply N.eqb_neq in H; rewrite H; [reflexivity|].
  rewrite andb_false_r. reflexivity.
Qed.
