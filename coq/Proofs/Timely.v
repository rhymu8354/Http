(* Timely.v -- "more input" is answered only while the element being read is unfinished: once
   the request line and the header block are complete the parser has either rejected, or
   accepted, or is only waiting for declared body bytes (C03 / C04, timeliness).  Conversely a
   proper prefix of an acceptable message is answered "more input", never a rejection and never an
   early completion. *)
From Coq Require Import Lia.
From Http Require Import Model.Bytes Model.Headers Model.Request Model.Chunked
     Model.Response Proofs.ReqResume Spec.RequestGrammar
     Spec.ResponseGrammar Proofs.C01Request Proofs.ReqGrammar Proofs.RespResume Proofs.RespGrammar.

Section Req.
  Variable uri : Type.
  Variable uri_parse : bytes -> option uri.
  Notation P := (req_parse uri uri_parse).

  Theorem request_incomplete_means_unfinished cfg s st c :
    P cfg req_init s = (st, Incomplete c) ->
    match r_phase st with
    | PRequestLine => find_crlf s = None /\ c = 0
    | PHeaders =>
        exists e hs k, find_crlf s = Some e /\ c = e + 2 + k /\
                       hdr_parse (hl cfg) [] (strip_cr (skipn (e + 2) s)) = HIncomplete hs k
    | PBody n => c = length s /\ (N.of_nat (length (r_body st)) < n)%N
    end.
  Proof.
    intros H. pose proof (req_parse_answers uri uri_parse cfg s) as HI. rewrite H in HI. exact HI.
  Qed.

  Theorem request_prefix_needs_more cfg m v p t :
    IsRequest uri uri_parse cfg m v -> m = p ++ t -> t <> [] ->
    exists st c, req_parse uri uri_parse cfg req_init p = (st, Incomplete c).
  Proof.
    intros HI Hm Ht.
    destruct (req_parse_complete uri uri_parse cfg m v [] HI) as [st [E _]].
    rewrite app_nil_r in E.
    pose proof (req_parse_spec uri uri_parse cfg req_init p t (req_init_ok uri cfg)) as HS.
    rewrite <- Hm in HS. rewrite E in HS.
    destruct (req_parse uri uri_parse cfg req_init p) as [s1 [c|c|e]].
    - destruct HS as [Hc HS]. inversion HS; subst.
      rewrite app_length in Hc. destruct t; [congruence|]. simpl in Hc. lia.
    - eauto.
    - destruct HS as [st' [e' HS]]. discriminate.
  Qed.
End Req.

Theorem response_incomplete_means_unfinished s st c :
  resp_parse resp_init s = (st, Incomplete c) ->
  match s_phase st with
  | SStatusLine => find_crlf s = None /\ c = 0
  | SHeaders =>
      exists e hs k, find_crlf s = Some e /\ c = e + 2 + k /\
                     hdr_parse None [] (skipn (e + 2) s) = HIncomplete hs k
  | SFixedBody n => c = length s /\ (N.of_nat (length (s_body st)) < n)%N
  | SChunkedBody cs => exists e hs ch k, find_crlf s = Some e /\
                     hdr_parse None [] (skipn (e + 2) s) = HComplete hs ch /\
                     chunk_decode chunk_init (skipn ch (skipn (e + 2) s)) = (cs, Incomplete k) /\
                     c = e + 2 + ch + k
  end.
Proof.
  intros H. pose proof (resp_parse_answers s) as HI. rewrite H in HI. exact HI.
Qed.

Theorem response_prefix_needs_more m v p t :
  IsResponse m v -> m = p ++ t -> t <> [] ->
  exists st c, resp_parse resp_init p = (st, Incomplete c).
Proof.
  intros HI Hm Ht.
  destruct (resp_parse_complete m v [] HI) as [st [c [E [_ [Hc Htr]]]]].
  rewrite app_nil_r in E.
  assert (Htr0 : s_trailer st = []) by (destruct Htr; assumption).
  rewrite Htr0 in Hc. simpl in Hc. rewrite Nat.add_0_r in Hc. subst c.
  pose proof (resp_parse_spec resp_init p t rwf_init) as HS. unfold rspec in HS.
  rewrite <- Hm in HS. rewrite E in HS.
  destruct (resp_parse resp_init p) as [s1 [c|c|e]].
  - destruct HS as [Hc [st1' [c' [HS Hsame]]]]. inversion HS; subst st1' c'.
    destruct Hsame as [_ [_ [_ [_ Hb]]]]. rewrite Htr0 in Hb. simpl in Hb.
    rewrite Hm, app_length in Hb. destruct t; [congruence|]. simpl in Hb. lia.
  - eauto.
  - destruct HS as [st' [e' HS]]. discriminate.
Qed.
