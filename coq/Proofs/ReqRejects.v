(* ReqRejects.v -- Request::parse on a fresh parser rejects exactly the inputs that have a
   first offending element (Spec/Rejections.v), with that element's category (C03). *)
From Coq Require Import Lia.
From Http Require Import Model.Bytes Model.Request Spec.RequestGrammar Spec.Rejections
     Proofs.BytesLemmas Proofs.HeaderGrammarProofs Proofs.HeadersResume Proofs.ReqResume
     Proofs.ReqGrammar.

Lemma within_cases cfg x : within_max cfg x \/ ~ within_max cfg x.
Proof. unfold within_max. destruct (mm cfg) as [m|]; [lia|tauto]. Qed.

Section WithUri.
  Variable uri : Type.
  Variable uri_parse : bytes -> option uri.
  Notation P := (req_parse uri uri_parse).
  Notation PRL := (parse_request_line uri uri_parse).
  Notation RSD := (rshape_defect uri uri_parse).
  Notation RD := (request_defect uri uri_parse).

  Lemma parse_request_line_reject line e : PRL line = inr e <-> RSD line e.
  Proof.
    split.
    - intros H. pose proof (parse_request_line_view uri uri_parse line) as V.
      rewrite H in V. exact V.
    - intros H.
      destruct H as [l F|r|m r Hm Fm Fr|m r Hm Fm|m t p Hm Fm Ht Ft U|m t p u Hm Fm Ht Ft U Hp].
      + unfold parse_request_line. rewrite F. reflexivity.
      + unfold parse_request_line. cbn [find_byte]. rewrite N.eqb_refl. reflexivity.
      + rewrite parse_request_line_word, Fr by assumption. reflexivity.
      + rewrite parse_request_line_word by assumption. cbn [find_byte]. rewrite N.eqb_refl.
        reflexivity.
      + rewrite parse_request_line_words, U by assumption. reflexivity.
      + rewrite parse_request_line_words, U by assumption.
        apply bytes_eqb_false in Hp. rewrite Hp. reflexivity.
  Qed.

  Theorem request_reject_sound cfg s st e :
    P cfg req_init s = (st, Reject e) -> RD cfg s e.
  Proof. intros H. pose proof (req_parse_answers uri uri_parse cfg s) as HI. rewrite H in HI. exact HI. Qed.

  Theorem request_defect_rejected cfg s e :
    RD cfg s e -> exists st, P cfg req_init s = (st, Reject e).
  Proof.
    intros H.
    destruct H as [s F O|s F O W|l rest e Hl Hd|l rest meth u e LG BD|l rest meth u LG BP W
                   |l rest meth u fs LG BC W|l rest meth u fs v LG BC W HV PD
                   |l rest meth u fs v n LG BC W HV PD Wn].
    (* the defects of the header phase come after a good line *)
    4-8: rewrite (req_parse_good_line uri uri_parse _ _ rest _ _ LG), req_headers_form.
    6-8: rewrite (block_complete_parse _ _ _ BC).
    - exists req_init. rewrite req_parse_eq. unfold req_dispatch. cbn [r_phase req_init]. unfold req_line.
      rewrite F, O. reflexivity.
    - exists req_init. rewrite req_parse_eq. unfold req_dispatch. cbn [r_phase req_init]. unfold req_line.
      rewrite F, O. cbn [r_total req_init]. rewrite Nat.sub_0_r.
      destruct (presented_ok cfg 0 (length s)) eqn:PO; [|reflexivity].
      exfalso. apply W. apply (presented_ok_iff cfg 0 (length s)). exact PO.
    - exists req_init. rewrite (req_parse_line_form uri uri_parse cfg l rest Hl).
      destruct Hd as [l O|l O U|l O U W|l e O U W Hs]; rewrite O.
      + reflexivity.
      + rewrite U. reflexivity.
      + rewrite U, (proj2 (count_bytes_none_iff cfg 0 _) W). reflexivity.
      + apply parse_request_line_reject in Hs.
        rewrite U, (count_bytes_within cfg 0 _ W), Hs. reflexivity.
    - apply (hdr_parse_reject_iff (hl cfg) [] _ e) in BD. rewrite BD. cbn [shift check_presented]. eauto.
    - destruct (pending_incomplete _ _ BP) as [hs [k HP]]. rewrite HP.
      destruct (hdr_incomplete_pending _ _ _ _ HP) as [_ Hk].
      pose proof (strip_cr_length rest) as Hsl.
      destruct (count_bytes cfg _ (N.of_nat k)) as [t2|] eqn:C2; cbn [shift check_presented]; [|eauto].
      apply count_bytes_some_iff in C2. destruct C2 as [-> _]. cbn [r_total].
      destruct (presented_ok cfg _ _) eqn:PO; [|eauto].
      exfalso. apply W. apply presented_ok_iff in PO. rewrite sat_add_assoc in PO.
      apply (proj1 (within_sat0 cfg _ _)) in PO. eapply within_max_mono; [|exact PO].
      rewrite !app_length. cbn [length CRLF]. lia.
    - rewrite (proj2 (count_bytes_none_iff cfg _ _)); [cbn [shift check_presented]; eauto|].
      intros W2. apply W. apply (proj1 (within_sat0 cfg _ _)) in W2.
      rewrite <- Nat2N.inj_add in W2. exact W2.
    - rewrite count_bytes_within, HV, PD; [cbn [shift check_presented]; eauto|].
      apply within_sat0. rewrite <- Nat2N.inj_add. exact W.
    - rewrite count_bytes_within, HV, PD by (apply within_sat0; rewrite <- Nat2N.inj_add; exact W).
      rewrite (proj2 (count_bytes_none_iff cfg _ _)); [cbn [shift check_presented]; eauto|].
      intros W3. apply Wn. rewrite sat_add_assoc in W3. apply (proj1 (within_sat0 cfg _ _)) in W3.
      rewrite <- Nat2N.inj_add in W3. exact W3.
  Qed.

  Theorem request_reject_iff cfg s e :
    (exists st, P cfg req_init s = (st, Reject e)) <-> RD cfg s e.
  Proof.
    split; [intros [st H]; eapply request_reject_sound; exact H|apply request_defect_rejected].
  Qed.
End WithUri.
