(* RespRejects.v -- Response::parse on a fresh parser rejects exactly the inputs with a first
   offending element (Spec/Rejections.v: response_defect), naming its category (C04). *)
From Http Require Import Model.Bytes Model.Request Model.Response Spec.Rejections
     Proofs.BytesLemmas Proofs.HeaderGrammarProofs
     Proofs.ChunkGrammar Proofs.RespGrammar.

Lemma parse_status_line_reject line e :
  parse_status_line line = inr e <-> sshape_defect line e.
Proof.
  split.
  - intros H. pose proof (parse_status_line_spec line) as S. rewrite H in S. exact S.
  - intros [l F|p r Fp Hp|r Fr|c r Fc PD|c r n Fc PD Hn].
    + unfold parse_status_line. rewrite F. reflexivity.
    + rewrite (parse_status_line_sp p r Fp). apply bytes_eqb_false in Hp. rewrite Hp. reflexivity.
    + rewrite (parse_status_line_sp HTTP11 r eq_refl), Fr. reflexivity.
    + rewrite (parse_status_line_form c r Fc), PD. reflexivity.
    + rewrite (parse_status_line_form c r Fc), PD. apply N.ltb_ge in Hn. rewrite Hn. reflexivity.
Qed.

Lemma resp_fixed_never_rejects st n buf k st1 e : rshift k (resp_fixed st n buf) <> (st1, Reject e).
Proof. unfold resp_fixed. cbv zeta. destruct (N.leb _ _); cbn [rshift]; discriminate. Qed.

Theorem response_defect_rejected s e :
  response_defect s e -> exists st, resp_parse resp_init s = (st, Reject e).
Proof.
  intros H.
  destruct H as [l rest Hl U|l rest e Hl U Hs|l rest code reason e LG BD
                 |l rest code reason fs v LG BC HV PD|l code reason fs wire e LG Hok HV HT KD].
  - rewrite (resp_parse_line_form l rest Hl). rewrite U. cbn [negb]. eauto.
  - rewrite (resp_parse_line_form l rest Hl). rewrite U. cbn [negb].
    apply parse_status_line_reject in Hs. rewrite Hs. eauto.
  - rewrite (resp_parse_good_line l _ code reason LG). unfold resp_headers.
    cbn [s_headers after_status_line].
    apply (hdr_parse_reject_iff None [] rest e) in BD. rewrite BD. cbn [rshift]. eauto.
  - rewrite (resp_parse_good_line l _ code reason LG). unfold resp_headers.
    cbn [s_headers after_status_line].
    destruct BC as [Hok [wire ->]]. rewrite (hdr_parse_complete None [] fs wire Hok). cbn [app].
    rewrite HV, PD. cbn [rshift]. eauto.
  - rewrite (resp_parse_good_line l _ code reason LG). unfold resp_headers.
    cbn [s_headers after_status_line].
    rewrite (hdr_parse_complete None [] fs wire Hok). cbn [app].
    rewrite HV, HT. rewrite skipn_app_exact. unfold resp_chunked.
    apply chunk_reject_iff in KD. destruct KD as [cs CD]. rewrite CD. cbn [rshift]. eauto.
Qed.

Theorem response_reject_iff s e :
  (exists st, resp_parse resp_init s = (st, Reject e)) <-> response_defect s e.
Proof.
  split; [|apply response_defect_rejected].
  intros [st H]. pose proof (resp_parse_answers s) as HI. rewrite H in HI. exact HI.
Qed.
