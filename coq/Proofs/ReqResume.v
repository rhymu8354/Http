(* ReqResume.v -- Request::parse on a buffer followed by more bytes answers as when called again
   with the unconsumed rest followed by those bytes (req_parse_spec).  On the way: strip_cr under
   append; the running byte count through [within_max] (what both size tests of the model decide);
   one view per phase function (all its answers); a Complete answer depends only on the bytes
   consumed (the _firstn lemmas); how the count grows along the phases (total_spec). *)
From Coq Require Import Lia.
From Http Require Import Model.Bytes Model.Utf8 Model.Num Model.Headers Model.Request
     Spec.HeaderGrammar Spec.RequestGrammar Spec.Rejections Proofs.BytesLemmas Proofs.HeaderGrammarProofs
     Proofs.HeadersResume Proofs.FeedGeneric.

Lemma strip_cr_snoc x y : strip_cr (x ++ [y]) = if N.eqb y CR then x else x ++ [y].
Proof.
  induction x as [|a x IH]; [reflexivity|].
  change ((a :: x) ++ [y]) with (a :: (x ++ [y])).
  assert (E : strip_cr (a :: (x ++ [y])) = a :: strip_cr (x ++ [y])).
  { destruct x; reflexivity. }
  rewrite E, IH. destruct (N.eqb y CR); reflexivity.
Qed.

Lemma strip_cr_nil : strip_cr [] = [].
Proof. reflexivity. Qed.

Lemma strip_cr_length s : length (strip_cr s) <= length s.
Proof.
  destruct s as [|a s'] using rev_ind; [simpl; lia|].
  rewrite strip_cr_snoc. destruct (N.eqb a CR); rewrite ?app_length; simpl; lia.
Qed.

Lemma strip_cr_app_ne a b : b <> [] -> strip_cr (a ++ b) = a ++ strip_cr b.
Proof.
  intros H. destruct b as [|y b'] using rev_ind; [congruence|].
  rewrite app_assoc, !strip_cr_snoc. destruct (N.eqb y CR); [reflexivity|].
  rewrite app_assoc. reflexivity.
Qed.

Lemma strip_cr_decomp a :
  exists t, a = strip_cr a ++ t /\ (t = [] \/ t = [CR]) /\ (t = [] -> ends_cr a = false).
Proof.
  destruct a as [|y a'] using rev_ind.
  - exists []. repeat split; auto.
  - rewrite strip_cr_snoc, ends_cr_app_single. destruct (N.eqb y CR) eqn:E.
    + apply N.eqb_eq in E. subst. exists [CR]. repeat split; auto. discriminate.
    + exists []. rewrite app_nil_r. repeat split; auto.
Qed.

Lemma strip_cr_skipn c a : c <= length (strip_cr a) -> strip_cr (skipn c a) = skipn c (strip_cr a).
Proof.
  destruct a as [|y a'] using rev_ind; intros H.
  - rewrite strip_cr_nil, !skipn_nil. reflexivity.
  - rewrite strip_cr_snoc in *. destruct (N.eqb y CR) eqn:E.
    + rewrite skipn_app_le by lia. rewrite strip_cr_snoc, E. reflexivity.
    + rewrite app_length in H. simpl in H.
      destruct (Nat.eq_dec c (length a' + 1)) as [->|Hne].
      * rewrite !skipn_all2 by (rewrite app_length; simpl; lia). reflexivity.
      * rewrite skipn_app_le by lia. rewrite strip_cr_snoc, E. reflexivity.
Qed.

Lemma strip_cr_extend a b :
  exists u, strip_cr (a ++ b) = strip_cr a ++ u
            /\ (ends_cr (strip_cr a) && starts_lf u)%bool = false
            /\ forall c, c <= length (strip_cr a) ->
                 strip_cr (skipn c a ++ b) = skipn c (strip_cr a) ++ u.
Proof.
  destruct b as [|b0 b'].
  - exists []. rewrite !app_nil_r. split; [reflexivity|]. split.
    + unfold starts_lf. apply andb_false_r.
    + intros c Hc. rewrite !app_nil_r. apply strip_cr_skipn. exact Hc.
  - remember (b0 :: b') as b eqn:Hb. assert (Hne : b <> []) by (subst; discriminate).
    destruct (strip_cr_decomp a) as [t [Ha [Ht Hends]]].
    exists (t ++ strip_cr b). split; [|split].
    + rewrite strip_cr_app_ne, app_assoc, <- Ha by exact Hne. reflexivity.
    + destruct Ht as [->| ->].
      * (* a does not end with CR: strip_cr a = a *)
        rewrite app_nil_r in Ha. rewrite <- Ha. rewrite (Hends eq_refl). reflexivity.
      * simpl. apply andb_false_r.
    + intros c Hc. rewrite strip_cr_app_ne by exact Hne.
      rewrite app_assoc, <- (skipn_app_le c (strip_cr a) t), <- Ha by exact Hc. reflexivity.
Qed.

Lemma strip_cr_ends_lf p b : strip_cr ((p ++ CRLF) ++ b) = (p ++ CRLF) ++ strip_cr b.
Proof.
  destruct b as [|x b']; [|apply strip_cr_app_ne; discriminate].
  change CRLF with ([CR] ++ [LF]). rewrite strip_cr_nil, !app_nil_r, app_assoc, strip_cr_snoc. reflexivity.
Qed.

Lemma strip_cr_after_block fs x : strip_cr (header_block fs ++ x) = header_block fs ++ strip_cr x.
Proof. apply strip_cr_ends_lf. Qed.

Lemma strip_cr_block lim hs0 block hs rest :
  hdr_parse lim hs0 block = HComplete hs (length block) ->
  strip_cr (block ++ rest) = block ++ strip_cr rest.
Proof.
  intros H. destruct (complete_block_ends_lf _ _ _ _ H) as [p ->]. apply strip_cr_ends_lf.
Qed.

(* a complete block ends with CR LF, so the buffer itself starts with it, final CR or not *)
Lemma hdr_parse_strip_inv lim hs0 x hs ch :
  hdr_parse lim hs0 (strip_cr x) = HComplete hs ch ->
  exists fs rest, block_ok lim fs /\ x = header_block fs ++ rest /\
                  hs = hs0 ++ map field_header fs /\ ch = length (header_block fs).
Proof.
  intros E. destruct (hdr_parse_complete_inv _ _ _ _ _ E) as [fs [rest [Hok [Hs H]]]].
  destruct (strip_cr_decomp x) as [t [Hx _]]. rewrite Hs, <- app_assoc in Hx. eauto.
Qed.

Lemma hdr_complete_block lim x hs c :
  hdr_parse lim [] (strip_cr x) = HComplete hs c ->
  exists fs y, block_complete lim (strip_cr x) fs /\ x = header_block fs ++ y /\
               hs = map field_header fs /\ c = length (header_block fs).
Proof.
  intros H. destruct (hdr_parse_strip_inv _ _ _ _ _ H) as (fs & y & Hok & -> & -> & ->).
  exists fs, y. split; [|auto].
  split; [exact Hok|exists (strip_cr y); apply strip_cr_after_block].
Qed.

Lemma hdr_parse_block_again lim hs0 x hs ch w :
  hdr_parse lim hs0 (strip_cr x) = HComplete hs ch ->
  ch <= length x /\ hdr_parse lim hs0 (strip_cr (firstn ch x ++ w)) = HComplete hs ch.
Proof.
  intros E. destruct (hdr_parse_strip_inv _ _ _ _ _ E) as [fs [rest [Hok [-> [-> ->]]]]].
  rewrite firstn_app_exact, app_length, strip_cr_after_block.
  split; [lia|apply hdr_parse_complete; exact Hok].
Qed.

Lemma sat_add_assoc t a b : sat_add (sat_add t a) b = sat_add t (a + b).
Proof. unfold sat_add. lia. Qed.

Lemma sat_add_le a b a' b' : (a <= a')%N -> (b <= b')%N -> (sat_add a b <= sat_add a' b')%N.
Proof. unfold sat_add. lia. Qed.

Lemma within_max_mono cfg a b : (a <= b)%N -> within_max cfg b -> within_max cfg a.
Proof. unfold within_max. destruct (mm cfg) as [m|]; [lia|auto]. Qed.

(* saturation is invisible to the size test *)
Lemma within_sat_add cfg a b c : within_max cfg (sat_add a b + c) <-> within_max cfg (a + b + c).
Proof. unfold within_max, sat_add. destruct (mm cfg) as [m|]; [lia|tauto]. Qed.

Lemma presented_ok_iff cfg t k : presented_ok cfg t k = true <-> within_max cfg (t + N.of_nat k).
Proof.
  unfold presented_ok, within_max, sat_add. destruct (mm cfg) as [m|]; [|tauto].
  rewrite negb_true_iff, N.ltb_ge. tauto.
Qed.

Lemma count_bytes_some_iff cfg t c t' :
  count_bytes cfg t c = Some t' <-> t' = sat_add t c /\ within_max cfg (t + c).
Proof.
  unfold count_bytes, within_max. fold (sat_add t c). destruct (mm cfg) as [m|].
  - destruct (N.ltb_spec m (sat_add t c)); split.
    + discriminate.
    + intros [_ W]. lia.
    + intros H'. injection H' as <-. auto.
    + intros [-> _]. reflexivity.
  - split; [intros H; injection H as <-; auto|intros [-> _]; reflexivity].
Qed.

Lemma count_bytes_within cfg t c :
  within_max cfg (t + c) -> count_bytes cfg t c = Some (sat_add t c).
Proof. intros W. apply count_bytes_some_iff. auto. Qed.

Lemma count_bytes_none_iff cfg t c : count_bytes cfg t c = None <-> ~ within_max cfg (t + c).
Proof.
  destruct (count_bytes cfg t c) as [t'|] eqn:E.
  - apply count_bytes_some_iff in E. split; [discriminate|tauto].
  - split; [|reflexivity]. intros _ W. rewrite (count_bytes_within _ _ _ W) in E. discriminate.
Qed.

Lemma grows_within cfg t c t2 k :
  (sat_add t c <= t2)%N -> within_max cfg (t2 + k) -> within_max cfg (t + c + k).
Proof. intros H W. apply within_sat_add. eapply within_max_mono; [|exact W]. lia. Qed.

Lemma count_bytes_assoc cfg t c1 c2 t1 :
  count_bytes cfg t c1 = Some t1 -> count_bytes cfg t (c1 + c2) = count_bytes cfg t1 c2.
Proof.
  intros H. apply count_bytes_some_iff in H. destruct H as [-> _].
  unfold count_bytes. rewrite sat_add_assoc. reflexivity.
Qed.

Lemma count_bytes_fail_mono cfg t c1 c2 :
  count_bytes cfg t c1 = None -> count_bytes cfg t (c1 + c2) = None.
Proof.
  rewrite !count_bytes_none_iff. intros H W. apply H.
  eapply within_max_mono; [|exact W]. lia.
Qed.

Section WithUri.
  Variable uri : Type.
  Variable uri_parse : bytes -> option uri.

  Notation state := (req_state uri).
  Notation D := (req_dispatch uri uri_parse).
  Notation P := (req_parse uri uri_parse).

  (* equal answers; for rejections only the category matters (the state that comes
     with a rejection is never used) *)
  Definition oeq (r1 r2 : state * outcome) : Prop :=
    match r1, r2 with
    | (_, Reject e1), (_, Reject e2) => e1 = e2
    | _, _ => r1 = r2
    end.

  (* [oeq] and the model's [shift] are the generic [goeq] and [gshift] at this state type *)
  Lemma oeq_refl r : oeq r r.
  Proof. exact (goeq_refl state r). Qed.

  Lemma oeq_inv r1 r2 :
    oeq r1 r2 ->
    match r2 with (_, Reject e) => exists s, r1 = (s, Reject e) | _ => r1 = r2 end.
  Proof. exact (goeq_inv state r1 r2). Qed.

  Lemma oeq_shift k r1 r2 : oeq r1 r2 -> oeq (shift uri k r1) (shift uri k r2).
  Proof. exact (goeq_gshift state k r1 r2). Qed.

  Lemma shift_shift k1 k2 r : shift uri k1 (shift uri k2 r) = shift uri (k1 + k2) r.
  Proof. exact (gshift_gshift state k1 k2 r). Qed.

  Lemma shift_0 r : shift uri 0 r = r.
  Proof. exact (gshift_0 state r). Qed.

  Definition add_body (st : state) (x : bytes) : state :=
    {| r_phase := r_phase st; r_method := r_method st; r_target := r_target st;
       r_headers := r_headers st; r_body := r_body st ++ x; r_total := r_total st |}.

  Lemma add_body_app st a b : add_body (add_body st a) b = add_body st (a ++ b).
  Proof. unfold add_body. cbn. rewrite <- app_assoc. reflexivity. Qed.

  Lemma req_body_done st n buf k :
    N.of_nat k = (n - N.of_nat (length (r_body st)))%N -> k <= length buf ->
    req_body uri st n buf = (add_body st (firstn k buf), Complete k).
  Proof.
    intros Hk Hl. unfold req_body. rewrite <- Hk, Nat2N.id.
    destruct (N.leb_spec (N.of_nat k) (N.of_nat (length buf))); [reflexivity|lia].
  Qed.

  Lemma req_body_more st n buf :
    (N.of_nat (length buf) < n - N.of_nat (length (r_body st)))%N ->
    req_body uri st n buf = (add_body st buf, Incomplete (length buf)).
  Proof.
    intros H. unfold req_body.
    destruct (N.leb_spec (n - N.of_nat (length (r_body st))) (N.of_nat (length buf)));
      [lia|reflexivity].
  Qed.

  Inductive body_view (st : state) (n : N) (buf : bytes) : state * outcome -> Prop :=
  | BV_done k :
      N.of_nat k = (n - N.of_nat (length (r_body st)))%N -> k <= length buf ->
      body_view st n buf (add_body st (firstn k buf), Complete k)
  | BV_more :
      (N.of_nat (length buf) < n - N.of_nat (length (r_body st)))%N ->
      body_view st n buf (add_body st buf, Incomplete (length buf)).

  Lemma req_body_view st n buf : body_view st n buf (req_body uri st n buf).
  Proof.
    destruct (N.le_gt_cases (n - N.of_nat (length (r_body st))) (N.of_nat (length buf))) as [H|H].
    - rewrite (req_body_done st n buf (N.to_nat (n - N.of_nat (length (r_body st))))) by lia.
      constructor; lia.
    - rewrite req_body_more by exact H. constructor. exact H.
  Qed.

  Definition hdr_state (st : state) (hs : list header) (t : N) : state :=
    {| r_phase := PHeaders; r_method := r_method st; r_target := r_target st;
       r_headers := hs; r_body := r_body st; r_total := t |}.

  Definition body_state (st : state) (hs : list header) (n t : N) : state :=
    {| r_phase := PBody n; r_method := r_method st; r_target := r_target st;
       r_headers := hs; r_body := r_body st; r_total := t |}.

  Inductive headers_view (cfg : rcfg) (st : state) (buf : bytes) : state * outcome -> Prop :=
  | HV_error e :
      hdr_parse (hl cfg) (r_headers st) (strip_cr buf) = HError e ->
      headers_view cfg st buf (st, Reject (EHeaders e))
  | HV_more_max hs c :
      hdr_parse (hl cfg) (r_headers st) (strip_cr buf) = HIncomplete hs c ->
      count_bytes cfg (r_total st) (N.of_nat c) = None ->
      headers_view cfg st buf (st, Reject EMessageTooLong)
  | HV_more hs c t :
      hdr_parse (hl cfg) (r_headers st) (strip_cr buf) = HIncomplete hs c ->
      count_bytes cfg (r_total st) (N.of_nat c) = Some t ->
      headers_view cfg st buf (hdr_state st hs t, Incomplete c)
  | HV_block_max hs c :
      hdr_parse (hl cfg) (r_headers st) (strip_cr buf) = HComplete hs c ->
      count_bytes cfg (r_total st) (N.of_nat c) = None ->
      headers_view cfg st buf (st, Reject EMessageTooLong)
  | HV_done hs c t :
      hdr_parse (hl cfg) (r_headers st) (strip_cr buf) = HComplete hs c ->
      count_bytes cfg (r_total st) (N.of_nat c) = Some t ->
      header_value hs CONTENT_LENGTH = None ->
      headers_view cfg st buf (hdr_state st hs t, Complete c)
  | HV_bad_length hs c t v :
      hdr_parse (hl cfg) (r_headers st) (strip_cr buf) = HComplete hs c ->
      count_bytes cfg (r_total st) (N.of_nat c) = Some t ->
      header_value hs CONTENT_LENGTH = Some v -> parse_dec v = None ->
      headers_view cfg st buf (st, Reject EInvalidContentLength)
  | HV_declared_max hs c t v n :
      hdr_parse (hl cfg) (r_headers st) (strip_cr buf) = HComplete hs c ->
      count_bytes cfg (r_total st) (N.of_nat c) = Some t ->
      header_value hs CONTENT_LENGTH = Some v -> parse_dec v = Some n ->
      count_bytes cfg t n = None ->
      headers_view cfg st buf (st, Reject EMessageTooLong)
  | HV_body hs c t v n t2 :
      hdr_parse (hl cfg) (r_headers st) (strip_cr buf) = HComplete hs c ->
      count_bytes cfg (r_total st) (N.of_nat c) = Some t ->
      header_value hs CONTENT_LENGTH = Some v -> parse_dec v = Some n ->
      count_bytes cfg t n = Some t2 ->
      headers_view cfg st buf
        (shift uri c (req_body uri (body_state st hs n t2) n (skipn c buf))).

  Lemma req_headers_view cfg st buf : headers_view cfg st buf (req_headers uri cfg st buf).
  Proof.
    unfold req_headers.
    destruct (hdr_parse (hl cfg) (r_headers st) (strip_cr buf)) as [hs c|hs c|e] eqn:HP.
    - destruct (count_bytes cfg (r_total st) (N.of_nat c)) as [t|] eqn:C1;
        [|eapply HV_block_max; eassumption].
      destruct (header_value hs CONTENT_LENGTH) as [v|] eqn:HV; [|eapply HV_done; eassumption].
      destruct (parse_dec v) as [n|] eqn:PD; [|eapply HV_bad_length; eassumption].
      destruct (count_bytes cfg t n) as [t2|] eqn:C2;
        [eapply HV_body|eapply HV_declared_max]; eassumption.
    - destruct (count_bytes cfg (r_total st) (N.of_nat c)) as [t|] eqn:C1;
        [eapply HV_more|eapply HV_more_max]; eassumption.
    - apply HV_error. exact HP.
  Qed.

  Definition line_state (st : state) (meth : bytes) (u : uri) (t : N) : state :=
    {| r_phase := PHeaders; r_method := meth; r_target := Some u;
       r_headers := r_headers st; r_body := r_body st; r_total := t |}.

  Inductive line_view (cfg : rcfg) (st : state) (buf : bytes) : state * outcome -> Prop :=
  | LV_open_long :
      find_crlf buf = None -> over_limit (length (strip_cr buf)) (rl cfg) = true ->
      line_view cfg st buf (st, Reject ERequestLineTooLong)
  | LV_open :
      find_crlf buf = None -> over_limit (length (strip_cr buf)) (rl cfg) = false ->
      line_view cfg st buf (st, Incomplete 0)
  | LV_long e :
      find_crlf buf = Some e -> over_limit e (rl cfg) = true ->
      line_view cfg st buf (st, Reject ERequestLineTooLong)
  | LV_text e :
      find_crlf buf = Some e -> over_limit e (rl cfg) = false ->
      utf8_valid (firstn e buf) = false ->
      line_view cfg st buf (st, Reject ERequestLineNotValidText)
  | LV_max e :
      find_crlf buf = Some e -> over_limit e (rl cfg) = false ->
      utf8_valid (firstn e buf) = true ->
      count_bytes cfg (r_total st) (N.of_nat (e + 2)) = None ->
      line_view cfg st buf (st, Reject EMessageTooLong)
  | LV_shape e t er :
      find_crlf buf = Some e -> over_limit e (rl cfg) = false ->
      utf8_valid (firstn e buf) = true ->
      count_bytes cfg (r_total st) (N.of_nat (e + 2)) = Some t ->
      parse_request_line uri uri_parse (firstn e buf) = inr er ->
      line_view cfg st buf (st, Reject er)
  | LV_line e t meth u :
      find_crlf buf = Some e -> over_limit e (rl cfg) = false ->
      utf8_valid (firstn e buf) = true ->
      count_bytes cfg (r_total st) (N.of_nat (e + 2)) = Some t ->
      parse_request_line uri uri_parse (firstn e buf) = inl (meth, u) ->
      line_view cfg st buf
        (shift uri (e + 2) (req_headers uri cfg (line_state st meth u t) (skipn (e + 2) buf))).

  Lemma req_line_view cfg st buf : line_view cfg st buf (req_line uri uri_parse cfg st buf).
  Proof.
    unfold req_line. destruct (find_crlf buf) as [e|] eqn:E.
    - destruct (over_limit e (rl cfg)) eqn:O; [eapply LV_long; eassumption|].
      destruct (utf8_valid (firstn e buf)) eqn:U; [|eapply LV_text; eassumption].
      cbn [negb].
      destruct (count_bytes cfg (r_total st) (N.of_nat (e + 2))) as [t|] eqn:C;
        [|eapply LV_max; eassumption].
      destruct (parse_request_line uri uri_parse (firstn e buf)) as [[meth u]|er] eqn:PL;
        [eapply LV_line|eapply LV_shape]; eassumption.
    - destruct (over_limit (length (strip_cr buf)) (rl cfg)) eqn:O;
        [apply LV_open_long|apply LV_open]; assumption.
  Qed.

  (* what appending bytes to the buffer of one call may do to the answer *)
  Definition res_spec (cfg : rcfg) (r_a r_ab : state * outcome) (a b : bytes) : Prop :=
    match r_a with
    | (st1, Complete c) => c <= length a /\ r_ab = (st1, Complete c)
    | (st1, Incomplete c) =>
        c <= length a /\ oeq r_ab (shift uri c (D cfg st1 (skipn c a ++ b)))
    | (_, Reject e) => exists st' e', r_ab = (st', Reject e')
    end.

  Lemma res_spec_shift cfg k a b r_a r_ab :
    k <= length a ->
    res_spec cfg r_a r_ab (skipn k a) b ->
    res_spec cfg (shift uri k r_a) (shift uri k r_ab) a b.
  Proof.
    intros Hk. destruct r_a as [s1 [c|c|e]]; simpl; rewrite ?skipn_length.
    - intros [Hc ->]. split; [lia|reflexivity].
    - intros [Hc H]. split; [lia|].
      rewrite skipn_skipn' in H.
      rewrite <- shift_shift. apply oeq_shift. exact H.
    - intros [st' [e' ->]]. exists st', e'. reflexivity.
  Qed.

  Lemma req_body_app st n a b :
    (N.of_nat (length a) < n - N.of_nat (length (r_body st)))%N ->
    req_body uri st n (a ++ b) = shift uri (length a) (req_body uri (add_body st a) n b).
  Proof.
    intros H.
    destruct (req_body_view (add_body st a) n b) as [k Hk Hl|Hlt]; cbn [shift]; rewrite add_body_app.
    - cbn [add_body r_body] in Hk. rewrite app_length in Hk.
      rewrite (req_body_done st n (a ++ b) (length a + k)) by (rewrite ?app_length; lia).
      rewrite firstn_app_2. reflexivity.
    - cbn [add_body r_body] in Hlt. rewrite app_length in Hlt.
      rewrite (req_body_more st n (a ++ b)) by (rewrite app_length; lia).
      rewrite app_length. reflexivity.
  Qed.

  Lemma req_body_spec cfg st n a b :
    r_phase st = PBody n ->
    res_spec cfg (req_body uri st n a) (req_body uri st n (a ++ b)) a b.
  Proof.
    intros Hph. destruct (req_body_view st n a) as [k Hk Hl|Hlt]; cbn [res_spec].
    - split; [exact Hl|].
      rewrite (req_body_done st n (a ++ b) k Hk) by (rewrite app_length; lia).
      rewrite firstn_app_le by exact Hl. reflexivity.
    - split; [lia|]. rewrite skipn_all. cbn [app].
      unfold req_dispatch. cbn [r_phase add_body]. rewrite Hph.
      rewrite req_body_app by exact Hlt. apply oeq_refl.
  Qed.

  (* the header parser resumed after [c] bytes, and the [c] bytes counted: the header phase
     resumed on the rest *)
  Lemma req_headers_resumed cfg st buf hs c t :
    hdr_parse (hl cfg) (r_headers st) (strip_cr buf)
    = hshift c (hdr_parse (hl cfg) hs (strip_cr (skipn c buf))) ->
    count_bytes cfg (r_total st) (N.of_nat c) = Some t ->
    oeq (req_headers uri cfg st buf)
        (shift uri c (req_headers uri cfg (hdr_state st hs t) (skipn c buf))).
  Proof.
    intros HP C1. unfold req_headers. rewrite HP. cbn [hdr_state r_headers r_total].
    destruct (hdr_parse (hl cfg) hs (strip_cr (skipn c buf))) as [hs2 c2|hs2 c2|e2]; cbn [hshift].
    - rewrite Nat2N.inj_add, (count_bytes_assoc _ _ _ _ _ C1).
      destruct (count_bytes cfg t (N.of_nat c2)) as [t2|]; [|reflexivity].
      destruct (header_value hs2 CONTENT_LENGTH) as [v|]; [|reflexivity].
      destruct (parse_dec v) as [n|]; [|reflexivity].
      destruct (count_bytes cfg t2 n) as [t3|]; [|reflexivity].
      rewrite shift_shift, skipn_skipn'. apply oeq_refl.
    - rewrite Nat2N.inj_add, (count_bytes_assoc _ _ _ _ _ C1).
      destruct (count_bytes cfg t (N.of_nat c2)); reflexivity.
    - reflexivity.
  Qed.

  (* a count that failed on [c] bytes fails on the longer block *)
  Lemma req_headers_count_failed cfg st buf c r :
    hdr_parse (hl cfg) (r_headers st) (strip_cr buf) = hshift c r ->
    count_bytes cfg (r_total st) (N.of_nat c) = None ->
    exists st' e', req_headers uri cfg st buf = (st', Reject e').
  Proof.
    intros HP C1. unfold req_headers. rewrite HP.
    destruct r as [hs2 c2|hs2 c2|e2]; cbn [hshift]; [| |eauto];
      rewrite Nat2N.inj_add, (count_bytes_fail_mono _ _ _ _ C1); eauto.
  Qed.

  Lemma req_headers_spec cfg st a b :
    res_spec cfg (req_headers uri cfg st a) (req_headers uri cfg st (a ++ b)) a b.
  Proof.
    destruct (strip_cr_extend a b) as [u [Hab [Hside Hskip]]].
    pose proof (strip_cr_length a) as Hlen.
    unfold req_headers at 1.
    destruct (hdr_parse (hl cfg) (r_headers st) (strip_cr a)) as [hs c|hs c|e] eqn:E.
    - destruct (hdr_parse_complete_app _ _ _ u _ _ E) as [Hc E']. rewrite <- Hab in E'.
      unfold req_headers. rewrite E'.
      destruct (count_bytes cfg (r_total st) (N.of_nat c)) as [t|]; [|simpl; eauto].
      destruct (header_value hs CONTENT_LENGTH) as [v|]; [|simpl; split; [lia|reflexivity]].
      destruct (parse_dec v) as [n|]; [|simpl; eauto].
      destruct (count_bytes cfg t n) as [t2|]; [|simpl; eauto].
      rewrite skipn_app_le by lia.
      apply res_spec_shift; [lia|]. apply req_body_spec. reflexivity.
    - destruct (hdr_parse_incomplete_app _ _ _ u _ _ E) as [Hc E'].
      rewrite <- Hab, <- (Hskip c Hc), <- skipn_app_le in E' by lia.
      destruct (count_bytes cfg (r_total st) (N.of_nat c)) as [t|] eqn:C1; cbn [res_spec].
      + split; [lia|]. rewrite <- skipn_app_le by lia.
        exact (req_headers_resumed cfg st (a ++ b) hs c t E' C1).
      + exact (req_headers_count_failed cfg st (a ++ b) c _ E' C1).
    - apply (hdr_parse_error_app _ _ _ u) in E; [|right; exact Hside]. rewrite <- Hab in E.
      unfold req_headers. rewrite E. simpl. eauto.
  Qed.

  (* an unterminated line over the limit only gets longer: its end, if more bytes bring one,
     is not before the last byte that [strip_cr] kept *)
  Lemma open_line_stays_long lim a b :
    find_crlf a = None -> over_limit (length (strip_cr a)) lim = true ->
    match find_crlf (a ++ b) with
    | Some e => over_limit e lim = true
    | None => over_limit (length (strip_cr (a ++ b))) lim = true
    end.
  Proof.
    intros E O.
    destruct (find_crlf (a ++ b)) as [e|] eqn:F; apply (over_limit_mono (length (strip_cr a))); try exact O.
    - destruct (strip_cr_decomp a) as [t [Ha [[->| ->] Hends]]].
      + rewrite app_nil_r in Ha. rewrite <- Ha.
        eapply find_crlf_app_none_strict; [exact E| |exact F].
        rewrite (Hends eq_refl). reflexivity.
      + pose proof (find_crlf_app_none _ _ _ E F) as H1.
        apply (f_equal (@length N)) in Ha. rewrite app_length in Ha. simpl in Ha. lia.
    - destruct (strip_cr_extend a b) as [u [-> _]]. rewrite app_length. lia.
  Qed.

  Lemma req_line_spec cfg st a b :
    r_phase st = PRequestLine ->
    res_spec cfg (req_line uri uri_parse cfg st a) (req_line uri uri_parse cfg st (a ++ b)) a b.
  Proof.
    intros Hph. unfold req_line at 1.
    destruct (find_crlf a) as [e|] eqn:E.
    - pose proof (find_crlf_bound _ _ E) as B.
      unfold req_line at 1. rewrite (find_crlf_app _ b _ E).
      destruct (over_limit e (rl cfg)); [simpl; eauto|].
      rewrite firstn_app_le by lia.
      destruct (negb (utf8_valid (firstn e a))); [simpl; eauto|].
      destruct (count_bytes cfg (r_total st) (N.of_nat (e + 2))) as [t|]; [|simpl; eauto].
      destruct (parse_request_line uri uri_parse (firstn e a)) as [[meth u]|er]; [|simpl; eauto].
      rewrite skipn_app_le by lia.
      apply res_spec_shift; [lia|]. apply req_headers_spec.
    - destruct (over_limit (length (strip_cr a)) (rl cfg)) eqn:O.
      + pose proof (open_line_stays_long _ a b E O) as L. unfold req_line.
        destruct (find_crlf (a ++ b)); rewrite L; simpl; eauto.
      + simpl. split; [lia|]. rewrite shift_0.
        unfold req_dispatch. rewrite Hph. apply oeq_refl.
  Qed.

  Lemma req_dispatch_spec cfg st a b :
    res_spec cfg (D cfg st a) (D cfg st (a ++ b)) a b.
  Proof.
    unfold req_dispatch at 1 2. destruct (r_phase st) as [| |n] eqn:Hph.
    - apply req_line_spec. exact Hph.
    - apply req_headers_spec.
    - apply req_body_spec. exact Hph.
  Qed.

  Lemma req_dispatch_bound cfg st x st2 o :
    D cfg st x = (st2, o) ->
    match o with Complete c | Incomplete c => c <= length x | Reject _ => True end.
  Proof.
    intros H. pose proof (req_dispatch_spec cfg st x []) as S. rewrite H in S.
    destruct o; cbn in S; tauto.
  Qed.

  Lemma req_body_firstn st n x st2 c :
    req_body uri st n x = (st2, Complete c) -> req_body uri st n (firstn c x) = (st2, Complete c).
  Proof.
    destruct (req_body_view st n x) as [k Hk Hl|Hlt]; intros H; [|discriminate H].
    injection H as <- <-.
    rewrite (req_body_done st n (firstn k x) k Hk) by (rewrite firstn_length; lia).
    rewrite firstn_firstn, Nat.min_id. reflexivity.
  Qed.

  Lemma req_headers_firstn cfg st x st2 c :
    req_headers uri cfg st x = (st2, Complete c) ->
    req_headers uri cfg st (firstn c x) = (st2, Complete c).
  Proof.
    destruct (req_headers_view cfg st x) as [ | | | |hs ch t E C HV| | |hs ch t v n t2 E C HV PD C2];
      intros Hr; try discriminate Hr.
    - injection Hr as <- <-.
      destruct (hdr_parse_block_again _ _ _ _ _ [] E) as [_ E']. rewrite app_nil_r in E'.
      unfold req_headers. rewrite E', C, HV. reflexivity.
    - destruct (req_body_view (body_state st hs n t2) n (skipn ch x)) as [k Hk Hl|];
        [|discriminate Hr].
      injection Hr as <- <-.
      destruct (hdr_parse_block_again _ _ _ _ _ (firstn k (skipn ch x)) E) as [Hch E'].
      rewrite <- firstn_plus in E'.
      unfold req_headers. rewrite E', C, HV, PD, C2.
      rewrite skipn_firstn_comm. replace (ch + k - ch) with k by lia.
      fold (body_state st hs n t2).
      rewrite (req_body_done _ n (firstn k (skipn ch x)) k Hk) by (rewrite firstn_length; lia).
      rewrite firstn_firstn, Nat.min_id. reflexivity.
  Qed.

  Lemma req_line_firstn cfg st x st2 c :
    req_line uri uri_parse cfg st x = (st2, Complete c) ->
    req_line uri uri_parse cfg st (firstn c x) = (st2, Complete c).
  Proof.
    destruct (req_line_view cfg st x) as [ | | | | | |e t meth u E O U C PL];
      intros Hr; try discriminate Hr.
    pose proof (find_crlf_bound _ _ E) as B.
    destruct (req_headers uri cfg _ (skipn (e + 2) x)) as [sth [k|k|eh]] eqn:EH;
      try discriminate Hr.
    injection Hr as <- <-.
    unfold req_line. rewrite (find_crlf_firstn _ _ _ E) by lia. rewrite O.
    rewrite firstn_firstn, Nat.min_l by lia. rewrite U, C, PL. cbn [negb].
    rewrite skipn_firstn_comm. replace (e + 2 + k - (e + 2)) with k by lia.
    fold (line_state st meth u t). rewrite (req_headers_firstn _ _ _ _ _ EH). reflexivity.
  Qed.

  Lemma req_dispatch_firstn cfg st x st2 c :
    D cfg st x = (st2, Complete c) -> D cfg st (firstn c x) = (st2, Complete c).
  Proof.
    unfold req_dispatch. destruct (r_phase st).
    - apply req_line_firstn.
    - apply req_headers_firstn.
    - apply req_body_firstn.
  Qed.

  Lemma req_dispatch_complete_prefix cfg st a b st2 c :
    D cfg st (a ++ b) = (st2, Complete c) -> c <= length a -> D cfg st a = (st2, Complete c).
  Proof.
    intros H Hc. apply req_dispatch_firstn in H. rewrite firstn_app_le in H by exact Hc.
    pose proof (req_dispatch_spec cfg st (firstn c a) (skipn c a)) as S.
    rewrite H, firstn_skipn in S. apply S.
  Qed.

  Definition tot_ok (cfg : rcfg) (st : state) : Prop := presented_ok cfg (r_total st) 0 = true.

  Definition is_body (p : rphase) : bool := match p with PBody _ => true | _ => false end.

  Lemma tot_ok_iff cfg st : tot_ok cfg st <-> within_max cfg (r_total st).
  Proof. unfold tot_ok. rewrite presented_ok_iff, N.add_0_r. tauto. Qed.

  Lemma count_bytes_tot_ok cfg t c t1 :
    count_bytes cfg t c = Some t1 -> t1 = sat_add t c /\ presented_ok cfg t1 0 = true.
  Proof.
    intros H. apply count_bytes_some_iff in H. destruct H as [-> W]. split; [reflexivity|].
    apply presented_ok_iff. apply (proj2 (within_sat_add cfg t c 0)).
    rewrite N.add_0_r. exact W.
  Qed.

  Definition outstanding (st : state) : N :=
    match r_phase st with
    | PBody n => (n - N.of_nat (length (r_body st)))%N
    | _ => 0%N
    end.

  (* from the request-line or header phase: the count grows by at least what is consumed
     (and by the declared body, once it is declared), a completed message passed the size
     test, and the count of a state handed back is within the maximum if it was before *)
  Definition total_spec (cfg : rcfg) (st : state) (x : bytes) (r : state * outcome) : Prop :=
    match r with
    | (st2, Complete c2) =>
        (sat_add (r_total st) (N.of_nat c2) <= r_total st2)%N /\ (tot_ok cfg st -> tot_ok cfg st2)
    | (st2, Incomplete c2) =>
        (sat_add (r_total st) (N.of_nat c2 + outstanding st2) <= r_total st2)%N
        /\ (tot_ok cfg st -> tot_ok cfg st2)
        /\ (is_body (r_phase st2) = true -> c2 = length x)
    | (_, Reject _) => True
    end.

  Lemma req_headers_total cfg st x : total_spec cfg st x (req_headers uri cfg st x).
  Proof.
    destruct (req_headers_view cfg st x) as [ | |hs c t E C| |hs c t E C HV| |
                                             |hs ch t v n t2 E C HV PD C2]; try exact I.
    - destruct (count_bytes_tot_ok _ _ _ _ C) as [-> Ok]. cbn. rewrite N.add_0_r.
      split; [lia|]. split; [exact (fun _ => Ok)|discriminate].
    - destruct (count_bytes_tot_ok _ _ _ _ C) as [-> Ok]. cbn. split; [lia|exact (fun _ => Ok)].
    - destruct (count_bytes_tot_ok _ _ _ _ C) as [-> _].
      destruct (count_bytes_tot_ok _ _ _ _ C2) as [-> Ok]. rewrite sat_add_assoc in Ok |- *.
      destruct (hdr_parse_block_again _ _ _ _ _ [] E) as [Hch _].
      destruct (req_body_view (body_state st hs n (sat_add (r_total st) (N.of_nat ch + n))) n (skipn ch x))
        as [k Hk Hl|Hlt]; cbn [shift total_spec].
      + cbn [r_total add_body body_state].
        split; [apply sat_add_le; lia|exact (fun _ => Ok)].
      + unfold outstanding. cbn [r_total r_phase r_body add_body body_state] in Hlt |- *.
        rewrite app_length, skipn_length in *.
        split; [apply sat_add_le; lia|]. split; [exact (fun _ => Ok)|lia].
  Qed.

  Lemma total_spec_shift cfg st st' k x r :
    (sat_add (r_total st) (N.of_nat k) <= r_total st')%N -> k <= length x -> tot_ok cfg st' ->
    total_spec cfg st' (skipn k x) r -> total_spec cfg st x (shift uri k r).
  Proof.
    intros Ht Hk Hok'.
    assert (Hg : forall c t2, (sat_add (r_total st') c <= t2)%N ->
                              (sat_add (r_total st) (N.of_nat k + c) <= t2)%N).
    { intros c t2 H. rewrite <- sat_add_assoc. eapply N.le_trans; [|exact H].
      apply sat_add_le; [exact Ht|apply N.le_refl]. }
    destruct r as [st2 [c|c|e]]; cbn [total_spec shift].
    - rewrite Nat2N.inj_add. intros [H1 H2].
      split; [apply Hg; exact H1|intros _; exact (H2 Hok')].
    - rewrite skipn_length, Nat2N.inj_add, <- N.add_assoc. intros [H1 [H2 H3]].
      split; [apply Hg; exact H1|]. split; [intros _; exact (H2 Hok')|].
      intros Hb. rewrite (H3 Hb). lia.
    - exact (fun H => H).
  Qed.

  Lemma req_line_total cfg st x :
    r_phase st = PRequestLine -> total_spec cfg st x (req_line uri uri_parse cfg st x).
  Proof.
    intros Hph.
    destruct (req_line_view cfg st x) as [ |F O| | | | |e t meth u E O U C PL]; try exact I.
    - cbn. unfold outstanding. rewrite Hph. split; [unfold sat_add; lia|]. split; [auto|discriminate].
    - destruct (count_bytes_tot_ok _ _ _ _ C) as [-> Ok].
      apply (total_spec_shift cfg st (line_state st meth u (sat_add (r_total st) (N.of_nat (e + 2)))));
        [apply N.le_refl|exact (find_crlf_bound _ _ E)|exact Ok|apply req_headers_total].
  Qed.

  Lemma req_dispatch_total cfg st x :
    is_body (r_phase st) = false -> total_spec cfg st x (D cfg st x).
  Proof.
    intros Hnb. unfold req_dispatch. destruct (r_phase st) eqn:Hph; try discriminate.
    - apply req_line_total. exact Hph.
    - apply req_headers_total.
  Qed.

  Lemma req_parse_eq cfg st buf :
    P cfg st buf =
    match D cfg st buf with
    | (st', Incomplete c) =>
        if presented_ok cfg (r_total st') (length buf - c)
        then (st', Incomplete c) else (st, Reject EMessageTooLong)
    | r => r
    end.
  Proof. reflexivity. Qed.

  Lemma req_parse_complete_dispatch cfg st s st1 c :
    P cfg st s = (st1, Complete c) -> D cfg st s = (st1, Complete c).
  Proof.
    rewrite req_parse_eq. destruct (D cfg st s) as [s1 [k|k|e]]; try (intros H; exact H).
    destruct (presented_ok _ _ _); discriminate.
  Qed.

  Lemma req_parse_tot_ok cfg st buf st1 c :
    P cfg st buf = (st1, Incomplete c) -> tot_ok cfg st1.
  Proof.
    rewrite req_parse_eq. destruct (D cfg st buf) as [st' [k|k|e]]; try discriminate.
    destruct (presented_ok cfg (r_total st') (length buf - k)) eqn:E; [|discriminate].
    intros H. injection H as <- _. apply tot_ok_iff. apply presented_ok_iff in E.
    eapply within_max_mono; [|exact E]. lia.
  Qed.

  (* rejected because too many bytes were presented: more bytes do not help.  Outside the
     body phase the count grows with what is consumed, so the bytes presented stay too many
     for every later answer; in the body phase everything presented is consumed and was
     counted when the length was declared, so the test cannot fail there. *)
  Lemma presented_too_many cfg st a b st1 c :
    tot_ok cfg st -> D cfg st a = (st1, Incomplete c) ->
    presented_ok cfg (r_total st1) (length a - c) = false ->
    exists st' e', P cfg st (a ++ b) = (st', Reject e').
  Proof.
    intros Hok Da Pa.
    pose proof (req_dispatch_spec cfg st a b) as HS. rewrite Da in HS. destruct HS as [Hc HS].
    destruct (is_body (r_phase st)) eqn:Hb.
    { exfalso. unfold req_dispatch in Da. destruct (r_phase st) as [| |n]; try discriminate Hb.
      pose proof (req_body_view st n a) as V. rewrite Da in V. inversion V; subst.
      rewrite Nat.sub_diag in Pa. unfold tot_ok in Hok. cbn [r_total add_body] in Pa. congruence. }
    pose proof (req_dispatch_total cfg st a Hb) as T. rewrite Da in T.
    destruct T as [_ [Hok1 Hbody]]. specialize (Hok1 Hok).
    destruct (is_body (r_phase st1)) eqn:Hb1.
    { exfalso. rewrite (Hbody eq_refl), Nat.sub_diag in Pa. unfold tot_ok in Hok1. congruence. }
    assert (Hn : ~ within_max cfg (r_total st1 + N.of_nat (length a - c)))
      by (rewrite <- presented_ok_iff; congruence).
    pose proof (req_dispatch_total cfg st1 (skipn c a ++ b) Hb1) as T.
    pose proof (req_dispatch_bound cfg st1 (skipn c a ++ b)) as Hc2.
    rewrite app_length, skipn_length in Hc2.
    rewrite req_parse_eq. apply oeq_inv in HS.
    destruct (D cfg st1 (skipn c a ++ b)) as [st2 [c2|c2|e2]]; cbn [shift] in HS.
    - (* the message cannot end inside [a], nor after more bytes than fit *)
      exfalso. specialize (Hc2 _ _ eq_refl). destruct T as [Hl2 Hok2]. destruct (Nat.le_gt_cases (c + c2) (length a)) as [Hle|Hgt].
      + rewrite (req_dispatch_complete_prefix _ _ _ _ _ _ HS Hle) in Da. discriminate.
      + apply Hn. apply tot_ok_iff in Hok2; [|exact Hok1]. rewrite <- (N.add_0_r (r_total st2)) in Hok2.
        eapply within_max_mono; [|exact (grows_within _ _ _ _ _ Hl2 Hok2)]. lia.
    - rewrite HS. specialize (Hc2 _ _ eq_refl). destruct T as [Hl2 _].
      destruct (presented_ok cfg (r_total st2) (length (a ++ b) - (c + c2))) eqn:E; [|eauto].
      exfalso. apply Hn. apply presented_ok_iff in E.
      eapply within_max_mono; [|exact (grows_within _ _ _ _ _ Hl2 E)].
      rewrite app_length. lia.
    - destruct HS as [s ->]. eauto.
  Qed.

  Theorem req_parse_spec cfg st a b :
    tot_ok cfg st ->
    match P cfg st a with
    | (st1, Complete c) => c <= length a /\ P cfg st (a ++ b) = (st1, Complete c)
    | (st1, Incomplete c) =>
        c <= length a /\ oeq (P cfg st (a ++ b)) (shift uri c (P cfg st1 (skipn c a ++ b)))
    | (_, Reject e) => exists st' e', P cfg st (a ++ b) = (st', Reject e')
    end.
  Proof.
    intros Hok.
    pose proof (req_dispatch_spec cfg st a b) as HS. unfold res_spec in HS.
    rewrite (req_parse_eq cfg st a).
    destruct (D cfg st a) as [st1 [c|c|e]] eqn:Da.
    - destruct HS as [Hc HS]. split; [exact Hc|]. rewrite req_parse_eq, HS. reflexivity.
    - destruct (presented_ok cfg (r_total st1) (length a - c)) eqn:Pa;
        [|exact (presented_too_many cfg st a b st1 c Hok Da Pa)].
      destruct HS as [Hc HS]. split; [exact Hc|].
      (* both sides apply the test to the same state and the same unconsumed bytes *)
      rewrite (req_parse_eq cfg st (a ++ b)), (req_parse_eq cfg st1 (skipn c a ++ b)).
      assert (Hlen : forall c2, length (a ++ b) - (c + c2) = length (skipn c a ++ b) - c2)
        by (intros c2; rewrite !app_length, skipn_length; lia).
      apply oeq_inv in HS.
      destruct (D cfg st1 (skipn c a ++ b)) as [st2 [c2|c2|e2]]; cbn [shift] in HS.
      + rewrite HS. apply oeq_refl.
      + rewrite HS, Hlen. destruct (presented_ok cfg (r_total st2) _); [apply oeq_refl|exact eq_refl].
      + destruct HS as [s ->]. exact eq_refl.
    - destruct HS as [st' [e' HS]]. rewrite req_parse_eq, HS. eauto.
  Qed.
End WithUri.
