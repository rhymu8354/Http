(* FoldRoundTrip.v -- MessageHeaders::generate with rhymessage's fold_header (hdr_generate_full)
   against the generator the round-trip theorems are about (hdr_generate): whenever every line fits
   the limit the two produce the same bytes, so C10 / C11 speak about the real generator.  In general
   what rhymessage's folding generator writes is a header block of the grammar
   (Spec/HeaderGrammar.v: first lines and continuation lines), and for values whose only white space
   is single spaces between graphic characters it unfolds to the very same header list.  With the
   grammar-completeness theorem this gives the parse-back: such headers survive generate -> parse
   whatever their length; what does not survive is confined to tabs and runs of white space at a
   split point (and to values that cannot be split at all): known finding K6. *)
From Coq Require Import Lia.
From Http Require Import Model.Bytes Model.Num Model.Headers Model.Request
     Spec.HeaderGrammar Spec.RequestGrammar Proofs.BytesLemmas Proofs.CaseLemmas
     Proofs.HeaderGrammarProofs Proofs.ReqGrammar Proofs.RoundTrip.

Lemma header_line_nonempty h : header_line h <> [].
Proof. unfold header_line. destruct (fst h); discriminate. Qed.

Lemma fold_loop_nil f L skip acc : fold_loop f [] L skip acc = Some acc.
Proof. destruct f; reflexivity. Qed.

Lemma fold_loop_S f rest L skip acc :
  rest <> [] ->
  fold_loop (S f) rest L skip acc =
  match fold_header rest L skip with
  | None => None
  | Some (part, rest') => fold_loop f rest' L 1 (acc ++ part ++ CRLF)
  end.
Proof. destruct rest; [congruence|reflexivity]. Qed.

Lemma fold_loop_fits f line L skip acc :
  line <> [] -> (N.of_nat (length line) <= L)%N ->
  fold_loop (S f) line L skip acc = Some (acc ++ line ++ CRLF).
Proof.
  intros Hne Hfit. rewrite (fold_loop_S _ _ _ _ _ Hne). unfold fold_header.
  apply N.leb_le in Hfit. rewrite Hfit. apply fold_loop_nil.
Qed.

Lemma gen_lines_fit lim : forall hs acc,
  forallb (line_fits lim) hs = true ->
  gen_lines lim hs acc = GOk (acc ++ flat_map (fun h => header_line h ++ CRLF) hs ++ CRLF).
Proof.
  induction hs as [|h t IH]; intros acc Hfit.
  - reflexivity.
  - cbn [forallb] in Hfit. apply andb_prop in Hfit as [Hh Ht].
    cbn [gen_lines flat_map]. destruct lim as [l|].
    + unfold line_fits in Hh. apply N.leb_le in Hh.
      assert (Hl : N.ltb l 2 = false) by (apply N.ltb_ge; lia). rewrite Hl.
      rewrite fold_loop_fits; [|apply header_line_nonempty|lia].
      rewrite IH by exact Ht. rewrite <- !app_assoc. reflexivity.
    + rewrite IH by exact Ht. rewrite <- !app_assoc. reflexivity.
Qed.

Theorem hdr_generate_full_agrees lim hs b :
  hdr_generate lim hs = Some b -> hdr_generate_full lim hs = GOk b.
Proof.
  unfold hdr_generate, hdr_generate_full. destruct (forallb (line_fits lim) hs) eqn:E; [|discriminate].
  intros H. inversion H; subst. rewrite gen_lines_fit by exact E. reflexivity.
Qed.

Theorem req_generate_full_agrees cfg meth target hs body b :
  req_generate cfg meth target hs body = Some b -> req_generate_full cfg meth target hs body = GOk b.
Proof.
  unfold req_generate, req_generate_full. destruct (hdr_generate (hl cfg) hs) as [h|] eqn:E; [|discriminate].
  intros H. inversion H; subst. rewrite (hdr_generate_full_agrees _ _ _ E). reflexivity.
Qed.

Lemma find_split_aux_spec : forall s idx skip L best i,
  find_split_aux s idx skip L best = Some i ->
  best = Some i \/
  exists k b, i = idx + k /\ nth_error s k = Some b /\ is_wsp b = true /\ skip <= i /\ (N.of_nat i <= L)%N.
Proof.
  induction s as [|a t IH]; intros idx skip L best i H; cbn [find_split_aux] in H.
  - left. exact H.
  - destruct (IH _ _ _ _ _ H) as [E|[k [b [Ei [Hn [Hw [Hs Hl]]]]]]].
    + destruct (Nat.leb skip idx && N.leb (N.of_nat idx) L && is_wsp a)%bool eqn:C.
      * inversion E; subst. right. exists 0, a.
        apply andb_prop in C as [C Hw]. apply andb_prop in C as [C1 C2].
        apply Nat.leb_le in C1. apply N.leb_le in C2.
        repeat split; try assumption; try lia. 
      * left. exact E.
    + right. exists (S k), b. repeat split; try assumption; lia.
Qed.

(* one fold step: the piece written out never exceeds the limit, and the rest is strictly shorter *)
Theorem fold_header_piece_within_limit line L skip part rest :
  fold_header line L skip = Some (part, rest) ->
  (N.of_nat (length part) <= L)%N /\ (rest = [] \/ (0 < skip -> length rest < length line)).
Proof.
  unfold fold_header. destruct (N.leb (N.of_nat (length line)) L) eqn:E.
  - intros H. inversion H; subst. apply N.leb_le in E. split; [exact E|left; reflexivity].
  - destruct (find_split_aux line 0 skip L None) as [i|] eqn:F; [|discriminate].
    intros H. inversion H; subst. clear H.
    destruct (find_split_aux_spec _ _ _ _ _ _ F) as [X|(k & b & _ & _ & _ & Hs & Hi)]; [discriminate|].
    split.
    + rewrite firstn_length. lia.
    + right. intros Hpos. rewrite skipn_length. apply N.leb_gt in E. lia.
Qed.

Lemma find_split_aux_no_wsp : forall s idx skip L best,
  (forall k b, nth_error s k = Some b -> skip <= idx + k -> is_wsp b = false) ->
  find_split_aux s idx skip L best = best.
Proof.
  induction s as [|a t IH]; intros idx skip L best H; cbn [find_split_aux]; [reflexivity|].
  rewrite IH.
  - destruct (Nat.leb_spec skip idx) as [Hle|Hgt]; [|reflexivity].
    rewrite (H 0 a eq_refl) by lia. rewrite Bool.andb_false_r. reflexivity.
  - intros k b Hk Hs. apply (H (S k) b Hk). lia.
Qed.

Lemma fold_header_no_wsp line L skip :
  (L < N.of_nat (length line))%N ->
  (forall k b, nth_error line k = Some b -> skip <= k -> is_wsp b = false) ->
  fold_header line L skip = None.
Proof.
  intros Hl H. unfold fold_header. rewrite (proj2 (N.leb_gt _ _) Hl).
  rewrite find_split_aux_no_wsp by exact H. reflexivity.
Qed.

(* a header line too long for the limit whose value has no white space: the only white space from
   the name on is the SP after the colon, at index length (fst h) + 1, below skip *)
Theorem hdr_generate_full_cannot_fold l h t :
  (2 <= l)%N -> (l - 2 < N.of_nat (length (header_line h)))%N ->
  (forall b, In b (snd h) -> is_wsp b = false) ->
  hdr_generate_full (Some l) (h :: t) = GCannotFold.
Proof.
  intros Hl Hlong Hv. unfold hdr_generate_full. cbn [gen_lines]. rewrite (proj2 (N.ltb_ge l 2) Hl).
  rewrite fold_loop_S by apply header_line_nonempty.
  rewrite fold_header_no_wsp; [reflexivity|exact Hlong|].
  intros k b Hk Hs. unfold header_line in Hk. rewrite app_assoc in Hk.
  rewrite nth_error_app2 in Hk by (rewrite app_length; exact Hs).
  apply Hv. apply (nth_error_In _ _ Hk).
Qed.

(* the fuel of fold_loop is never what ends it: with more than |line| rounds the answer does not depend
   on the fuel (each fold leaves a strictly shorter rest), so GCannotFold always stands for a piece that
   fold_header could not split *)
Lemma fold_loop_fuel_irrelevant : forall f1 f2 rest L skip acc,
  0 < skip -> length rest < f1 -> length rest < f2 ->
  fold_loop f1 rest L skip acc = fold_loop f2 rest L skip acc.
Proof.
  induction f1 as [|f1 IH]; intros f2 rest L skip acc Hs H1 H2; [lia|].
  destruct f2 as [|f2]; [lia|].
  destruct rest as [|a t]; [reflexivity|].
  cbn [fold_loop].
  destruct (fold_header (a :: t) L skip) as [[part rest']|] eqn:E; [|reflexivity].
  destruct (fold_header_piece_within_limit _ _ _ _ _ E) as [_ [Hr|Hr]].
  - subst rest'. rewrite !fold_loop_nil. reflexivity.
  - specialize (Hr Hs). apply IH; try lia.
Qed.

(* graphic characters separated by single spaces; begins and ends with a graphic character *)
Inductive tight : bytes -> Prop :=
| tight_one b : is_graphic b = true -> tight [b]
| tight_cons b w : is_graphic b = true -> tight w -> tight (b :: w)
| tight_sp b w : is_graphic b = true -> tight w -> tight (b :: SP :: w).

Lemma graphic_not_ws b : is_graphic b = true -> is_ws b = false.
Proof. intros H. apply is_ws_false_graphic, between_spec, H. Qed.

Lemma tight_vchars w : tight w -> forallb is_vchar w = true.
Proof.
  induction 1 as [b Hb|b w Hb _ IH|b w Hb _ IH]; cbn [forallb]; rewrite ?(graphic_vchar _ Hb), ?IH; reflexivity.
Qed.

Lemma tight_head w : tight w -> exists b t, w = b :: t /\ is_graphic b = true.
Proof. induction 1; eexists; eexists; split; try reflexivity; assumption. Qed.

Lemma tight_last w : tight w -> exists t b, w = t ++ [b] /\ is_graphic b = true.
Proof.
  induction 1 as [b Hb|b w Hb _ [t [c [E Hc]]]|b w Hb _ [t [c [E Hc]]]].
  - exists [], b. split; [reflexivity|exact Hb].
  - exists (b :: t), c. rewrite E. split; [reflexivity|exact Hc].
  - exists (b :: SP :: t), c. rewrite E. split; [reflexivity|exact Hc].
Qed.

Lemma trim_sp_tight w : tight w -> trim (SP :: w) = w.
Proof.
  intros H. rewrite trim_sp. apply trim_noop. split.
  - destruct (tight_head w H) as [b [t [E Hb]]]. rewrite E. apply graphic_not_ws, Hb.
  - destruct (tight_last w H) as [t' [c [E' Hc]]]. rewrite E', rev_app_distr. apply graphic_not_ws, Hc.
Qed.

Lemma tight_split : forall w, tight w -> forall w1 b w2, w = w1 ++ b :: w2 -> is_wsp b = true ->
  b = SP /\ tight w1 /\ tight w2.
Proof.
  induction 1 as [c Hc|c w Hc Hw IH|c w Hc Hw IH]; intros w1 b w2 E Hb.
  - destruct w1 as [|x w1]; cbn [app] in E; inversion E; subst.
    + rewrite (graphic_not_wsp _ Hc) in Hb. discriminate.
    + destruct w1; discriminate.
  - destruct w1 as [|x w1]; cbn [app] in E; inversion E; subst.
    + rewrite (graphic_not_wsp _ Hc) in Hb. discriminate.
    + destruct (IH w1 b w2 eq_refl Hb) as [Eb [T1 T2]]. split; [exact Eb|]. split; [|exact T2].
      apply tight_cons; assumption.
  - destruct w1 as [|x w1]; cbn [app] in E; injection E as <- E.
    + rewrite (graphic_not_wsp _ Hc) in Hb. discriminate.
    + destruct w1 as [|y w1]; cbn [app] in E; injection E as <- E.
      * split; [reflexivity|]. split; [apply tight_one; exact Hc|rewrite <- E; exact Hw].
      * destruct (IH w1 b w2 E Hb) as [Eb [T1 T2]]. split; [exact Eb|]. split; [|exact T2].
        apply tight_sp; assumption.
Qed.

Lemma tight_count_wsp w : tight w -> count_wsp (SP :: w) = 1.
Proof. intros [b Hb|b w' Hb _|b w' Hb _]; cbn; rewrite (graphic_not_wsp b Hb); reflexivity. Qed.

Lemma tight_cont_ok w : tight w -> cont_ok (SP :: w).
Proof. intros H. split; [reflexivity|]. cbn [forallb]. rewrite (tight_vchars w H). reflexivity. Qed.

Definition tight_rest (rest : bytes) : Prop := rest = [] \/ exists w, rest = SP :: w /\ tight w.

(* one fold of a tight text that starts at position [length pre] of the line (pre is the name and ": "
   for the first piece, the kept space for a continuation): the whole line if it fits, or else the
   line up to one of the spaces of the text, that space starting the rest *)
Lemma fold_header_tight pre w L part rest :
  tight w -> fold_header (pre ++ w) L (length pre) = Some (part, rest) ->
  exists w1, part = pre ++ w1 /\ tight w1 /\ w = w1 ++ rest /\ tight_rest rest.
Proof.
  intros Hw H. unfold fold_header in H. destruct (N.leb _ L).
  { inversion H. exists w. rewrite app_nil_r. repeat split; [exact Hw|left; reflexivity]. }
  destruct (find_split_aux (pre ++ w) 0 (length pre) L None) as [i|] eqn:F; [|discriminate].
  destruct (find_split_aux_spec _ _ _ _ _ _ F) as [X|(k & b & -> & Hn & Hb & Hs & _)]; [discriminate|].
  cbn [Nat.add] in *. rewrite nth_error_app2 in Hn by exact Hs.
  destruct (nth_error_split _ _ Hn) as (w1 & w2 & -> & Hk).
  destruct (tight_split _ Hw w1 b w2 eq_refl Hb) as (-> & T1 & T2).
  replace k with (length (pre ++ w1)) in H by (rewrite app_length; lia).
  rewrite app_assoc, firstn_app_exact, skipn_app_exact, (tight_count_wsp w2 T2), Nat.add_0_r,
    skipn_app_exact in H.
  inversion H. exists w1. repeat split; [exact T1|right; exists w2; split; [reflexivity|exact T2]].
Qed.

Lemma fold_loop_conts : forall f rest L acc out,
  tight_rest rest -> fold_loop f rest L 1 acc = Some out ->
  exists conts, out = acc ++ conts_bytes conts /\ Forall cont_ok conts /\
                forall v0, unfolded v0 conts = v0 ++ rest.
Proof.
  induction f as [|f IH]; intros rest L acc out Hrest H.
  all: destruct Hrest as [->|(w & -> & Hw)].
  (* nothing left, with or without fuel: no continuation lines *)
  1, 3: rewrite fold_loop_nil in H; inversion H; exists []; rewrite app_nil_r;
    split; [reflexivity|split; [constructor|intros v0; symmetry; apply app_nil_r]].
  - (* text left and no fuel *) discriminate H.
  - rewrite fold_loop_S in H by discriminate.
    destruct (fold_header (SP :: w) L 1) as [[part rest]|] eqn:E; [|discriminate].
    apply (fold_header_tight [SP]) in E as (w1 & -> & T1 & -> & Hrest); [|exact Hw].
    destruct (IH rest L _ out Hrest H) as (conts & -> & Hc & Hu).
    exists ((SP :: w1) :: conts). split; [|split].
    + rewrite conts_bytes_cons, <- !app_assoc. reflexivity.
    + constructor; [apply tight_cont_ok, T1|exact Hc].
    + intros v0. unfold unfolded in *. cbn [fold_left].
      rewrite Hu, (trim_sp_tight _ T1), <- !app_assoc. reflexivity.
Qed.

Definition tight_header (h : header) : Prop := name_ok (fst h) /\ tight (snd h).

Lemma fold_loop_field f h L acc out :
  tight_header h -> length (header_line h) < f ->
  fold_loop f (header_line h) L (length (fst h) + 2) acc = Some out ->
  exists fld, out = acc ++ field_bytes fld /\ field_ok (Some (L + 2)%N) fld /\ field_header fld = h.
Proof.
  destruct h as [name v]. intros [Hn Hv] Hf H. cbn [fst snd] in *.
  destruct f as [|f]; [lia|]. unfold header_line in H. cbn [fst snd] in H.
  rewrite fold_loop_S in H by (destruct name; discriminate).
  replace (length name + 2) with (length (name ++ [COLON; SP])) in H by (rewrite app_length; reflexivity).
  rewrite (app_assoc name) in H.
  destruct (fold_header _ L _) as [[part rest]|] eqn:E; [|discriminate].
  destruct (fold_header_piece_within_limit _ _ _ _ _ E) as [Hfit _].
  apply fold_header_tight in E as (v1 & -> & T1 & -> & Hrest); [|exact Hv].
  destruct (fold_loop_conts f rest L _ out Hrest H) as (conts & -> & Hc & Hu).
  exists {| f_name := name; f_seg0 := SP :: v1; f_conts := conts |}. split; [|split].
  - unfold field_bytes, first_line. cbn [f_name f_seg0 f_conts]. rewrite <- !app_assoc. reflexivity.
  - unfold field_ok, first_line. cbn [f_name f_seg0 f_conts]. split; [exact Hn|]. split.
    + cbn [forallb]. rewrite (tight_vchars _ T1). reflexivity.
    + split; [exact Hc|]. unfold over_limit. apply N.ltb_ge.
      rewrite !app_length in *. cbn [length] in *. lia.
  - unfold field_header. cbn [f_name f_seg0 f_conts]. rewrite Hu. cbn [app].
    rewrite (trim_sp_tight _ Hv). reflexivity.
Qed.

Lemma gen_lines_fields l : forall hs acc b,
  (2 <= l)%N -> Forall tight_header hs -> gen_lines (Some l) hs acc = GOk b ->
  exists fs, b = acc ++ header_block fs /\ Forall (field_ok (Some l)) fs /\ map field_header fs = hs.
Proof.
  induction hs as [|h t IH]; intros acc b Hl Hw H.
  - cbn [gen_lines] in H. inversion H. exists []. split; [reflexivity|]. split; constructor.
  - inversion Hw as [|h' t' Hh Ht]; subst. cbn [gen_lines] in H.
    assert (Hlt : N.ltb l 2 = false) by (apply N.ltb_ge; exact Hl). rewrite Hlt in H.
    destruct (fold_loop (S (length (header_line h))) (header_line h) (l - 2) (length (fst h) + 2) acc) as [acc'|] eqn:E; [|discriminate].
    destruct (fold_loop_field _ h (l - 2)%N acc acc' Hh (Nat.lt_succ_diag_r _) E) as [fld [Ea [Hok Hfh]]].
    destruct (IH acc' b Hl Ht H) as [fs [Eb [Hfs Hm]]].
    exists (fld :: fs). split; [|split].
    + rewrite Eb, Ea. unfold header_block. cbn [flat_map]. rewrite <- !app_assoc. reflexivity.
    + constructor; [|exact Hfs]. replace (l - 2 + 2)%N with l in Hok by lia. exact Hok.
    + cbn [map]. rewrite Hfh, Hm. reflexivity.
Qed.

Theorem folded_block_is_grammatical l hs b :
  (2 <= l)%N -> Forall tight_header hs -> hdr_generate_full (Some l) hs = GOk b ->
  exists fs, b = header_block fs /\ block_ok (Some l) fs /\ map field_header fs = hs.
Proof.
  intros Hl Hw H. destruct (gen_lines_fields l hs [] b Hl Hw H) as [fs [Eb [Hfs Hm]]].
  exists fs. split; [exact Eb|]. split; [|exact Hm]. split; [exact Hfs|].
  unfold over_limit. apply N.ltb_ge. lia.
Qed.

(* and so it parses back to exactly the headers it was generated from, whatever their length *)
Theorem folded_block_parses_back l hs b rest :
  (2 <= l)%N -> Forall tight_header hs -> hdr_generate_full (Some l) hs = GOk b ->
  hdr_parse (Some l) [] (b ++ rest) = HComplete hs (length b).
Proof.
  intros Hl Hw H. destruct (folded_block_is_grammatical l hs b Hl Hw H) as [fs [Eb [Hok Hm]]].
  subst b. rewrite (hdr_parse_complete (Some l) [] fs rest Hok). rewrite Hm. reflexivity.
Qed.

(* whole requests: C10's round trip without the "lines fit the limit" clause, for tight headers *)
Section ReqFolded.
  Variable uri : Type.
  Variable uri_parse : bytes -> option uri.
  Variable uri_show : uri -> bytes.

  (* like WfRequest, except that header lines may be of any length: values are graphic characters separated by
     single spaces, and the folding generator succeeds on them *)
  Definition WfRequestFolded (cfg : rcfg) (v : req_value uri) (hb : bytes) : Prop :=
    v_method v <> [] /\ method_ok (v_method v) /\
    uri_ok uri uri_parse uri_show (v_target v) /\
    over_limit (length (request_line (v_method v) (uri_show (v_target v)))) (rl cfg) = false /\
    (exists l, hl cfg = Some l /\ (2 <= l)%N) /\
    Forall tight_header (v_headers v) /\
    hdr_generate_full (hl cfg) (v_headers v) = GOk hb /\
    let head := N.of_nat (length (request_line (v_method v) (uri_show (v_target v))) + 2 + length hb) in
    match header_value (v_headers v) CONTENT_LENGTH with
    | None => v_body v = [] /\ within_max cfg head
    | Some t => exists n, parse_dec t = Some n /\ length (v_body v) = N.to_nat n /\ within_max cfg (head + n)
    end.

  Theorem request_roundtrip_folded cfg v hb :
    WfRequestFolded cfg v hb ->
    exists g st,
      req_generate_full cfg (v_method v) (uri_show (v_target v)) (v_headers v) (v_body v) = GOk g /\
      req_parse uri uri_parse cfg req_init g = (st, Complete (length g)) /\
      value_of uri st (v_target v) = v /\ r_target st = Some (v_target v).
  Proof.
    intros [Hm [Hmg [Hu [Hrl [[l [Hl Hl2]] [Hhs [Hgen Hbody]]]]]]].
    rewrite Hl in Hgen.
    destruct (folded_block_is_grammatical l (v_headers v) hb Hl2 Hhs Hgen) as [fs [Ehb [Hok Hmap]]].
    unfold req_generate_full. rewrite Hl, Hgen.
    eexists. 
    assert (HI : IsRequest uri uri_parse cfg
                   (v_method v ++ [SP] ++ uri_show (v_target v) ++ [SP] ++ HTTP11 ++ CRLF ++ hb ++ v_body v) v).
    { exists (uri_show (v_target v)), fs. split; [|split; [|split; [|split]]].
      - unfold request_line. rewrite Ehb. rewrite <- !app_assoc. reflexivity.
      - apply request_line_ok_wf; assumption.
      - rewrite Hl. exact Hok.
      - symmetry. exact Hmap.
      - cbv zeta in *. rewrite <- Ehb. exact Hbody. }
    destruct (req_parse_complete uri uri_parse cfg _ v [] HI) as [st [E [Hv Ht]]].
    rewrite app_nil_r in E. exists st. split; [reflexivity|]. split; [exact E|]. split; assumption.
  Qed.
End ReqFolded.
