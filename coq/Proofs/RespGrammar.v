(* RespGrammar.v -- Response::parse reports Complete exactly on the response grammar, with
   the framing order Content-Length, chunked, none, and keeps trailing data verbatim (C04). *)
From Coq Require Import Lia.
From Http Require Import Model.Bytes Model.Utf8 Model.Num Model.Headers Model.Request
     Model.Chunked Model.Response Spec.HeaderGrammar Spec.ChunkedGrammar Spec.ResponseGrammar
     Spec.Rejections
     Proofs.BytesLemmas Proofs.HeaderAlgebra Proofs.HeaderGrammarProofs
     Proofs.ChunkResume Proofs.ChunkGrammar Proofs.RespResume Proofs.Numeric.

Lemma parse_status_line_sp p r :
  find_byte SP p = None ->
  parse_status_line (p ++ SP :: r) =
  if negb (bytes_eqb p HTTP11) then inr EStatusLineProtocol else
  match find_byte SP r with
  | None => inr EStatusLineNoStatusCodeDelimiter
  | Some cd =>
    match parse_dec (firstn cd r) with
    | None => inr EInvalidStatusCode
    | Some code =>
      if N.ltb code 1000 then inl (code, skipn (S cd) r) else inr EStatusCodeOutOfRange
    end
  end.
Proof.
  intros F. unfold parse_status_line.
  rewrite (find_byte_app_none SP p r F), firstn_app_exact, skipn_app_cons. reflexivity.
Qed.

Lemma parse_status_line_form c r :
  find_byte SP c = None ->
  parse_status_line (HTTP11 ++ SP :: c ++ SP :: r) =
  match parse_dec c with
  | None => inr EInvalidStatusCode
  | Some code => if N.ltb code 1000 then inl (code, r) else inr EStatusCodeOutOfRange
  end.
Proof.
  intros F.
  rewrite (parse_status_line_sp HTTP11 _ eq_refl), (find_byte_app_none SP c r F),
    firstn_app_exact, skipn_app_cons.
  reflexivity.
Qed.

Lemma parse_status_line_complete codetext reason code :
  status_line_ok codetext reason code ->
  parse_status_line (status_line codetext reason) = inl (code, reason).
Proof.
  intros (PD & Hlt & _). destruct (parse_dec_digits _ _ PD) as [[_ Hd] _].
  unfold status_line. cbn [app].
  rewrite (parse_status_line_form _ _ (find_byte_forallb SP is_digit _ eq_refl Hd)), PD.
  apply N.ltb_lt in Hlt. rewrite Hlt. reflexivity.
Qed.

Lemma parse_status_line_spec line :
  match parse_status_line line with
  | inl (code, reason) =>
      exists codetext,
        line = status_line codetext reason /\ parse_dec codetext = Some code /\ (code < 1000)%N
  | inr e => sshape_defect line e
  end.
Proof.
  destruct (find_byte SP line) as [pd|] eqn:F1.
  2:{ unfold parse_status_line. rewrite F1. constructor. exact F1. }
  destruct (find_byte_word _ _ _ F1) as (p & r & -> & N1 & _).
  destruct (bytes_eqb p HTTP11) eqn:B.
  2:{ rewrite (parse_status_line_sp p r N1), B.
      apply SS_protocol; [exact N1|apply bytes_eqb_false; exact B]. }
  apply bytes_eqb_eq in B. subst p.
  destruct (find_byte SP r) as [cd|] eqn:F2.
  2:{ rewrite (parse_status_line_sp HTTP11 r eq_refl), F2. apply SS_no_code_delimiter. exact F2. }
  destruct (find_byte_word _ _ _ F2) as (c & r' & -> & N2 & _).
  rewrite (parse_status_line_form c r' N2).
  destruct (parse_dec c) as [n|] eqn:PD; [|apply SS_invalid_code; assumption].
  destruct (N.ltb_spec n 1000) as [L|L]; [|apply (SS_code_range _ _ n); assumption].
  exists c. repeat split; assumption.
Qed.

(* the state a fresh parser is in once the status line is read *)
Definition after_status_line (code : N) (reason : bytes) : resp_state :=
  {| s_phase := SHeaders; s_code := code; s_reason := reason;
     s_headers := []; s_body := []; s_trailer := [] |}.

Lemma resp_parse_line_form l rest :
  is_line l ->
  resp_parse resp_init (l ++ CRLF ++ rest) =
  if negb (utf8_valid l) then (resp_init, Reject EStatusLineNotValidText) else
  match parse_status_line l with
  | inr er => (resp_init, Reject er)
  | inl (code, reason) => rshift (length l + 2) (resp_headers (after_status_line code reason) rest)
  end.
Proof. exact (resp_line_form resp_init l rest). Qed.

Lemma resp_parse_good_line l rest code reason :
  sline_good l code reason ->
  resp_parse resp_init (l ++ CRLF ++ rest) =
  rshift (length l + 2) (resp_headers (after_status_line code reason) rest).
Proof.
  intros (ct & -> & Hok). pose proof (parse_status_line_complete _ _ _ Hok) as PL.
  destruct Hok as (_ & _ & Hl & Hu). rewrite (resp_parse_line_form _ rest Hl), Hu, PL. reflexivity.
Qed.

Theorem resp_parse_complete m v rest :
  IsResponse m v ->
  exists st c,
    resp_parse resp_init (m ++ rest) = (st, Complete c) /\ resp_value_of st = v /\
    c = length m + length (s_trailer st) /\
    (s_trailer st = rest \/ s_trailer st = []).
Proof.
  intros (codetext & fs & wire & -> & Hline & Hblock & Hfr).
  destruct v as [code reason hs body]. cbn [w_code w_reason w_headers w_body] in *.
  rewrite <- !app_assoc.
  rewrite (resp_parse_good_line _ _ code reason (ex_intro _ codetext (conj eq_refl Hline))).
  unfold resp_headers. cbn [s_headers s_body s_trailer s_code s_reason after_status_line].
  rewrite (hdr_parse_complete None [] fs _ Hblock), skipn_app_exact. cbn [app].
  set (l := status_line codetext reason). set (block := header_block fs).
  destruct Hfr as [t n body HV PD Hlen|c payload tfields HV HT HC|HV HT]; rewrite HV.
  - rewrite PD, (resp_fixed_whole _ n body rest) by (cbn [s_body length]; lia). cbn [rshift].
    eexists _, _. split; [reflexivity|]. split; [reflexivity|]. split; [|left; reflexivity].
    cbn [s_trailer app]. rewrite !app_length. cbn [length CRLF]. lia.
  - rewrite HT. unfold resp_chunked. rewrite (chunk_decode_complete _ _ _ rest HC). cbn [rshift].
    eexists _, _. split; [reflexivity|]. split; [reflexivity|]. split; [|right; reflexivity].
    cbn [s_trailer]. rewrite !app_length. cbn [length CRLF]. lia.
  - rewrite HT. cbn [rshift app].
    eexists _, _. split; [reflexivity|]. split; [reflexivity|]. split; [|right; reflexivity].
    cbn [s_trailer]. rewrite !app_length. cbn [length CRLF]. lia.
Qed.

(* What each answer of a fresh parser means.  Complete: the buffer is a message of the grammar,
   then the trailing data kept, then bytes not looked at.  Incomplete: the element the state
   names is unfinished.  Reject: the buffer has a first offending element of the category
   named.  One walk: status line, header block, then the framing the headers select. *)
Lemma resp_parse_answers s :
  match resp_parse resp_init s with
  | (st, Complete c) =>
      exists m z, s = m ++ s_trailer st ++ z /\ c = length m + length (s_trailer st) /\
                  IsResponse m (resp_value_of st)
  | (st, Incomplete c) =>
      match s_phase st with
      | SStatusLine => find_crlf s = None /\ c = 0
      | SHeaders =>
          exists e hs k, find_crlf s = Some e /\ c = e + 2 + k /\
                         hdr_parse None [] (skipn (e + 2) s) = HIncomplete hs k
      | SFixedBody n => c = length s /\ (N.of_nat (length (s_body st)) < n)%N
      | SChunkedBody cs => exists e hs ch k, find_crlf s = Some e /\
                         hdr_parse None [] (skipn (e + 2) s) = HComplete hs ch /\
                         chunk_decode chunk_init (skipn ch (skipn (e + 2) s)) =
                           (cs, Incomplete k) /\
                         c = e + 2 + ch + k
      end
  | (_, Reject e) => response_defect s e
  end.
Proof.
  destruct (line_cases s) as [E|(l & x & -> & Hl)].
  { unfold resp_parse, resp_line. cbn [s_phase resp_init]. rewrite E. split; reflexivity. }
  pose proof (is_line_find l x Hl) as F. pose proof (skipn_line l x) as K.
  rewrite (resp_parse_line_form l x Hl).
  destruct (utf8_valid l) eqn:U; cbn [negb]; [|apply SD_line_text; assumption].
  pose proof (parse_status_line_spec l) as PS.
  destruct (parse_status_line l) as [[code reason]|er]; [|apply SD_line_shape; assumption].
  destruct PS as (codetext & El & PD & Hlt).
  assert (Hsl : status_line_ok codetext reason code)
    by (unfold status_line_ok; rewrite <- El; repeat split; assumption).
  assert (LG : sline_good l code reason) by (exists codetext; split; assumption).
  unfold resp_headers. cbn [s_headers s_body s_trailer s_code s_reason after_status_line].
  destruct (hdr_parse None [] x) as [hs ch|hs ch|eh] eqn:HP; cbn [rshift s_phase].
  2:{ exists (length l), hs, ch. rewrite K. repeat split; assumption. }
  2:{ apply (SD_headers _ _ code reason); [exact LG|].
      apply (hdr_parse_reject_iff None [] x eh). exact HP. }
  destruct (hdr_parse_complete_inv _ _ _ _ _ HP) as (fs & y & Hblock & -> & -> & ->).
  rewrite skipn_app_exact. cbn [app] in HP |- *.
  assert (HI : forall wire hs' body, framing_of (map field_header fs) wire hs' body ->
                 IsResponse (l ++ CRLF ++ header_block fs ++ wire)
                   {| w_code := code; w_reason := reason; w_headers := hs'; w_body := body |}).
  { intros wire hs' body Hfr. exists codetext, fs, wire. cbn [w_code w_reason]. rewrite <- El.
    exact (conj eq_refl (conj Hsl (conj Hblock Hfr))). }
  destruct (header_value (map field_header fs) CONTENT_LENGTH) as [v|] eqn:HV.
  - destruct (parse_dec v) as [n|] eqn:PDv.
    2:{ apply (SD_content_length l _ code reason fs v); try assumption.
        exact (conj Hblock (ex_intro _ y eq_refl)). }
    destruct (N.lt_ge_cases (N.of_nat (length y)) n) as [Hs|He].
    + rewrite resp_fixed_short by (cbn [s_body length]; lia). cbn [rshift s_phase s_body app].
      split; [rewrite !app_length; cbn [length CRLF]; lia|exact Hs].
    + destruct (app_split (N.to_nat n) y) as (body & tr & -> & Hb); [lia|].
      rewrite (resp_fixed_whole _ n body tr) by (cbn [s_body length]; lia).
      cbn [rshift s_trailer app].
      exists (l ++ CRLF ++ header_block fs ++ body), [].
      split; [rewrite app_nil_r, <- !app_assoc; reflexivity|].
      split; [rewrite !app_length; cbn [length CRLF]; lia|].
      apply HI, (Fr_fixed _ v n); [exact HV|exact PDv|exact Hb].
  - destruct (has_header_token (map field_header fs) TRANSFER_ENCODING CHUNKED) eqn:HT.
    + unfold resp_chunked. pose proof (chunk_decode_app chunk_init y [] cwf_init) as Hk.
      destruct (chunk_decode chunk_init y) as [cs' [k|k|e2]] eqn:CD; cbn [rshift s_trailer s_phase].
      * destruct Hk as [Hk _]. exists (l ++ CRLF ++ header_block fs ++ firstn k y), (skipn k y).
        split; [rewrite <- !app_assoc; cbn [app]; rewrite firstn_skipn; reflexivity|].
        split; [rewrite !app_length, firstn_length_le by exact Hk; cbn [length CRLF]; lia|].
        apply HI, Fr_chunked; [exact HV|exact HT|]. apply chunk_decode_sound. exact CD.
      * exists (length l), (map field_header fs), (length (header_block fs)), k.
        rewrite K, skipn_app_exact. repeat split; try assumption. apply Nat.add_assoc.
      * apply (SD_chunked l code reason fs y e2); try assumption. apply chunk_reject_iff. eauto.
    + cbn [rshift s_trailer]. exists (l ++ CRLF ++ header_block fs), y.
      split; [rewrite <- !app_assoc; reflexivity|].
      split; [rewrite !app_length; cbn [length CRLF]; lia|].
      rewrite <- (app_nil_r (header_block fs)). apply HI, Fr_none; assumption.
Qed.

Theorem resp_parse_sound s st c :
  resp_parse resp_init s = (st, Complete c) ->
  let bd := c - length (s_trailer st) in
  c <= length s /\ length (s_trailer st) <= c /\
  IsResponse (firstn bd s) (resp_value_of st) /\
  s_trailer st = skipn bd (firstn c s).
Proof.
  intros H. cbv zeta. pose proof (resp_parse_answers s) as HI. rewrite H in HI.
  destruct HI as (m & z & -> & -> & HI).
  (* the buffer is m ++ t ++ z, m the message and t what was taken as trailing data *)
  rewrite Nat.add_sub, firstn_app_exact.
  split; [rewrite !app_length; lia|]. split; [lia|]. split; [exact HI|].
  rewrite firstn_app_2, firstn_app_exact, skipn_app_exact. reflexivity.
Qed.
