(* HuffmanKraft.v -- a table that passes the decoder's validity check (not over-subscribed) gives every
   symbol a canonical code that fits its length, so the decoding theorem of HuffmanCanon.v applies to
   every table the decoder accepts. *)
From Coq Require Import List NArith Arith Lia.
From Http Require Import Model.Bytes Model.Inflate Proofs.HuffmanCanon.
Import ListNotations.

(* kraft_left keeps  first + 2 * left = 2 ^ (position)  from one length to the next *)
Lemma kraft_first_bound : forall m counts lft first p r,
    kraft_left lft counts = Some r ->
    (first + 2 * lft = 2 ^ p)%N ->
    m < length counts ->
    (first_at (S m) counts first + nth m counts 0 <= 2 ^ (p + N.of_nat m))%N.
Proof.
  induction m as [|m IH]; intros [|c cs] lft first p r Hk Hinv Hl; try (inversion Hl; fail);
    cbn [kraft_left] in Hk; destruct (N.ltb_spec (2 * lft) c) as [|E]; try discriminate; cbn [nth].
  - rewrite first_at_1, N.add_0_r. lia.
  - rewrite first_at_SS, Nat2N.inj_succ, N.add_succ_r, <- N.add_succ_l.
    apply (IH cs (2 * lft - c)%N _ (N.succ p) r Hk); [rewrite N.pow_succ_r'; lia | apply Nat.succ_lt_mono, Hl].
Qed.

Lemma counts_nth lens m : m < 15 -> nth m (counts_for LENGTHS lens) 0%N = count_len (N.of_nat (S m)) lens.
Proof.
  intros H. apply nth_error_nth. unfold counts_for. rewrite nth_error_map, (LENGTHS_nth m H). reflexivity.
Qed.

Lemma code_fits b lens sym L :
  table_ok b (mk_table lens) = true -> 1 <= L -> L <= 15 ->
  nth_error lens sym = Some (N.of_nat L) ->
  (code_value lens sym L < 2 ^ N.of_nat L)%N.
Proof.
  intros Hok H1 H2 Hs. destruct L as [|m]; [inversion H1|]. apply Nat.le_succ_l in H2.
  unfold table_ok in Hok. change (h_counts (mk_table lens)) with (counts_for LENGTHS lens) in Hok.
  destruct (kraft_left 1 (counts_for LENGTHS lens)) as [r|] eqn:Hk; [|discriminate].
  (* at the start of the check nothing is assigned yet (first = 0) and one code is left (lft = 1)
     at length 1, where 0 + 2 * 1 = 2 ^ 1 *)
  pose proof (kraft_first_bound m _ 1 0 1 r Hk eq_refl) as Hb.
  unfold counts_for in Hb at 1. rewrite map_length, counts_nth, N.add_1_l, <- Nat2N.inj_succ in Hb by exact H2.
  specialize (Hb H2).
  pose proof (rank_lt_count _ _ _ Hs). unfold code_value. lia.
Qed.

Theorem dec_sym_accepted_table b lens sym L s t :
  table_ok b (mk_table lens) = true ->
  1 <= L -> L <= 15 ->
  nth_error lens sym = Some (N.of_nat L) ->
  bits_of s = code_bits lens sym L ++ t ->
  exists s', dec_sym (mk_table lens) s = Ok sym s' /\ bits_of s' = t.
Proof.
  intros Hok H1 H2 Hs Hb.
  exact (dec_sym_canonical lens sym L s t H1 H2 Hs (code_fits b lens sym L Hok H1 H2 Hs) Hb).
Qed.
