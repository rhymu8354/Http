(* HeaderAlgebra.v -- equational facts about the header collection operations. *)
From Http Require Import Model.Bytes Model.Headers.

Lemma bytes_eqb_eq a b : bytes_eqb a b = true <-> a = b.
Proof.
  revert b. induction a as [|x a IH]; intros [|y b]; simpl; split; intros H;
    try reflexivity; try discriminate.
  - apply andb_prop in H as [H1 H2]. apply N.eqb_eq in H1. apply IH in H2. subst. reflexivity.
  - inversion H; subst. rewrite N.eqb_refl. simpl. apply IH. reflexivity.
Qed.

Lemma bytes_eqb_refl a : bytes_eqb a a = true.
Proof. apply bytes_eqb_eq. reflexivity. Qed.

Lemma name_eq_iff a b : name_eq a b = true <-> lower a = lower b.
Proof. unfold name_eq, eq_ignore_case. apply bytes_eqb_eq. Qed.

Lemma name_eq_refl a : name_eq a a = true.
Proof. apply name_eq_iff. reflexivity. Qed.

Lemma name_eq_sym a b : name_eq a b = name_eq b a.
Proof. apply eq_iff_eq_true. rewrite !name_eq_iff. split; intros H; symmetry; exact H. Qed.

Lemma name_eq_trans a b c : name_eq a b = true -> name_eq b c = true -> name_eq a c = true.
Proof. intros H1 H2. apply name_eq_iff in H1, H2. apply name_eq_iff. exact (eq_trans H1 H2). Qed.

Lemma name_eq_other x m n : name_eq m n = false -> name_eq x m = true -> name_eq x n = false.
Proof.
  intros H1 H2. destruct (name_eq x n) eqn:E; [|reflexivity].
  rewrite name_eq_sym in H2. rewrite (name_eq_trans m x n H2 E) in H1. discriminate.
Qed.

Lemma filter_filter_all {A} (q p : A -> bool) l :
  (forall x, q x = true -> p x = true) -> filter q (filter p l) = filter q l.
Proof.
  intros H. induction l as [|x l IH]; [reflexivity|]. cbn [filter].
  destruct (q x) eqn:Q; [rewrite (H x Q); cbn [filter]; rewrite Q, IH; reflexivity|].
  destruct (p x); [cbn [filter]; rewrite Q|]; exact IH.
Qed.

Lemma filter_filter_none {A} (q p : A -> bool) l :
  (forall x, q x = true -> p x = false) -> filter q (filter p l) = [].
Proof.
  intros H. induction l as [|x l IH]; [reflexivity|]. cbn [filter].
  destruct (p x) eqn:P; [|exact IH]. cbn [filter].
  destruct (q x) eqn:Q; [rewrite (H x Q) in P; discriminate|exact IH].
Qed.

(* [q] selects no header named [n]: removing or setting [n] is invisible through [q] *)
Definition excludes (q : header -> bool) (n : bytes) : Prop :=
  forall h, name_eq (fst h) n = true -> q h = false.

Lemma filter_remove_excl q hs n : excludes q n -> filter q (remove_header hs n) = filter q hs.
Proof.
  intros H. apply filter_filter_all. intros h Q.
  destruct (name_eq (fst h) n) eqn:E; [rewrite (H h E) in Q; discriminate|reflexivity].
Qed.

Lemma filter_set_excl q hs n v : excludes q n -> filter q (set_header hs n v) = filter q hs.
Proof.
  intros H. unfold set_header. destruct (has_header hs n).
  - induction hs as [|h hs IH]; [reflexivity|].
    cbn [set_header_aux]. destruct (name_eq (fst h) n) eqn:E; cbn [filter].
    + rewrite (H (fst h, v) E), (H h E). apply filter_remove_excl. exact H.
    + rewrite IH. reflexivity.
  - rewrite filter_app. cbn [filter]. rewrite (H (n, v) (name_eq_refl n)). apply app_nil_r.
Qed.

Lemma hmv_app a b n : header_multi_value (a ++ b) n = header_multi_value a n ++ header_multi_value b n.
Proof. unfold header_multi_value. rewrite filter_app, map_app. reflexivity. Qed.

Lemma hmv_single h n : header_multi_value [h] n = if name_eq (fst h) n then [snd h] else [].
Proof. unfold header_multi_value. cbn [filter]. destruct (name_eq (fst h) n); reflexivity. Qed.

Lemma hmv_filter_none (p : header -> bool) hs n :
  (forall h, name_eq (fst h) n = true -> p h = false) ->
  header_multi_value (filter p hs) n = [].
Proof. intros Hp. unfold header_multi_value. rewrite filter_filter_none; [reflexivity|exact Hp]. Qed.

Lemma hmv_remove_same hs n : header_multi_value (remove_header hs n) n = [].
Proof. apply hmv_filter_none. intros h E. rewrite E. reflexivity. Qed.

Lemma excludes_other m n : name_eq m n = false -> excludes (fun h => name_eq (fst h) m) n.
Proof. intros Hmn h E. rewrite name_eq_sym in Hmn. exact (name_eq_other _ _ _ Hmn E). Qed.

Lemma hmv_remove_other hs n m :
  name_eq m n = false -> header_multi_value (remove_header hs n) m = header_multi_value hs m.
Proof.
  intros Hmn. unfold header_multi_value. rewrite filter_remove_excl; [reflexivity|].
  exact (excludes_other m n Hmn).
Qed.

Lemma has_header_hmv hs n : has_header hs n = false <-> header_multi_value hs n = [].
Proof.
  unfold has_header, header_multi_value. induction hs as [|h hs IH]; [split; reflexivity|].
  cbn [existsb filter]. destruct (name_eq (fst h) n); [split; discriminate|exact IH].
Qed.

Lemma hmv_set_same hs n v : header_multi_value (set_header hs n v) n = [v].
Proof.
  unfold set_header. destruct (has_header hs n) eqn:Hh.
  - induction hs as [|h hs IH]; [discriminate|].
    cbn [has_header existsb] in Hh. cbn [set_header_aux]. destruct (name_eq (fst h) n) eqn:E.
    + change ((fst h, v) :: remove_header hs n) with ([(fst h, v)] ++ remove_header hs n).
      rewrite hmv_app, hmv_single, hmv_remove_same. cbn [fst snd]. rewrite E. reflexivity.
    + change (h :: set_header_aux hs n v) with ([h] ++ set_header_aux hs n v).
      rewrite hmv_app, hmv_single, E. apply IH. exact Hh.
  - apply has_header_hmv in Hh. rewrite hmv_app, hmv_single, Hh. cbn [fst snd]. rewrite name_eq_refl. reflexivity.
Qed.

Lemma hmv_set_other hs n v m :
  name_eq m n = false -> header_multi_value (set_header hs n v) m = header_multi_value hs m.
Proof.
  intros Hmn. unfold header_multi_value. rewrite filter_set_excl; [reflexivity|].
  exact (excludes_other m n Hmn).
Qed.

Lemma header_value_hmv hs n :
  header_value hs n = match header_multi_value hs n with [] => None | vs => Some (join [COMMA] vs) end.
Proof. reflexivity. Qed.

Lemma header_tokens_hmv hs n : header_tokens hs n = flat_map value_tokens (header_multi_value hs n).
Proof. reflexivity. Qed.

Definition outside (names : list bytes) (h : header) : bool :=
  negb (existsb (name_eq (fst h)) names).

Lemma outside_name_eq names h1 h2 :
  name_eq (fst h1) (fst h2) = true -> outside names h1 = outside names h2.
Proof.
  intros H. unfold outside. f_equal. induction names as [|n ns IH]; [reflexivity|].
  cbn [existsb]. rewrite IH. f_equal.
  destruct (name_eq (fst h2) n) eqn:E2.
  - exact (name_eq_trans _ _ _ H E2).
  - exact (name_eq_other _ _ _ E2 H).
Qed.

Lemma excludes_outside names n : existsb (name_eq n) names = true -> excludes (outside names) n.
Proof.
  intros Hn h E. rewrite (outside_name_eq names h (n, [])) by exact E.
  unfold outside. cbn [fst]. rewrite Hn. reflexivity.
Qed.

Lemma others_remove names hs n :
  existsb (name_eq n) names = true ->
  filter (outside names) (remove_header hs n) = filter (outside names) hs.
Proof. intros Hn. apply filter_remove_excl, excludes_outside, Hn. Qed.

Lemma others_set names hs n v :
  existsb (name_eq n) names = true ->
  filter (outside names) (set_header hs n v) = filter (outside names) hs.
Proof. intros Hn. apply filter_set_excl, excludes_outside, Hn. Qed.

Lemma others_add_inside names hs n v :
  existsb (name_eq n) names = true ->
  filter (outside names) (add_header hs (n, v)) = filter (outside names) hs.
Proof.
  intros Hn. unfold add_header. rewrite filter_app. cbn [filter].
  rewrite (excludes_outside names n Hn (n, v) (name_eq_refl n)). apply app_nil_r.
Qed.
