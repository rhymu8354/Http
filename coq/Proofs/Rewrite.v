(* Rewrite.v -- what the headers say after de-chunking (C12) and after decode_body (C14).
   First the tokens of a header value: tokenising "t1, t2, ..., tn" gives back t1 ... tn, so a
   header written by joining lists exactly those codings.  Then the de-chunking rewrite, header
   by header; then decode_body: which codings it undoes and what it writes back. *)
From Http Require Import Model.Bytes Model.Num Model.Headers Model.Request Model.Chunked
     Model.Response Model.Coding Proofs.BytesLemmas Proofs.HeaderAlgebra Proofs.CaseLemmas.

Definition no_byte (c : N) (s : bytes) : bool := forallb (fun x => negb (N.eqb x c)) s.

Definition normal_token (t : bytes) : Prop :=
  no_byte COMMA t = true /\ trim t = t /\ lower t = t.

Lemma split_on_no_byte c s : Forall (fun p => no_byte c p = true) (split_on c s).
Proof.
  induction s as [|a t IH]; [repeat constructor|].
  cbn [split_on]. destruct (N.eqb a c) eqn:E; [constructor; [reflexivity|exact IH]|].
  destruct (split_on c t) as [|p ps]; [repeat constructor; cbn; rewrite E; reflexivity|].
  inversion IH as [|? ? Hp Hps]; subst. constructor; [|exact Hps].
  cbn [no_byte forallb]. rewrite E. exact Hp.
Qed.

Lemma value_tokens_normal v : Forall normal_token (value_tokens v).
Proof.
  unfold value_tokens, split_terminator. apply Forall_map, Forall_drop_last_empty.
  apply (Forall_impl _ (P := fun p => no_byte COMMA p = true)); [|apply split_on_no_byte].
  intros p Hp. split; [|split].
  - unfold no_byte. rewrite forallb_lower by (intros c; rewrite eqb_to_lower by reflexivity; reflexivity).
    apply forallb_trim. exact Hp.
  - rewrite <- trim_lower, trim_idem. reflexivity.
  - apply lower_idem.
Qed.

Lemma header_tokens_normal hs n : Forall normal_token (header_tokens hs n).
Proof. apply Forall_flat_map, Forall_forall. intros v _. apply value_tokens_normal. Qed.

Lemma split_on_app_delim c a b : no_byte c a = true -> split_on c (a ++ c :: b) = a :: split_on c b.
Proof.
  induction a as [|x a IH]; intros H.
  - cbn [app split_on]. rewrite N.eqb_refl. reflexivity.
  - cbn [no_byte forallb] in H. apply andb_prop in H as [E H]. apply negb_true_iff in E.
    cbn [app split_on]. rewrite E, (IH H). reflexivity.
Qed.

Lemma split_on_no_byte_whole c a : no_byte c a = true -> split_on c a = [a].
Proof.
  induction a as [|x a IH]; intros H; [reflexivity|].
  cbn [no_byte forallb] in H. apply andb_prop in H as [E H]. apply negb_true_iff in E.
  cbn [split_on]. rewrite E, (IH H). reflexivity.
Qed.

(* The pieces of "t, u1, ..., un" are t, " u1", ..., " un": the space goes to the front of the
   next element, so the head of the list need not be trimmed for the induction to go through. *)
Lemma tokens_of_joined t ts :
  no_byte COMMA t = true -> t <> [] -> Forall (fun u => normal_token u /\ u <> []) ts ->
  value_tokens (join [COMMA; SP] (t :: ts)) = lower (trim t) :: ts.
Proof.
  unfold value_tokens, split_terminator. intros Hc Hne H. revert t Hc Hne.
  induction H as [|u us [[Hu [Tu Lu]] Une] _ IH]; intros t Hc Hne.
  - cbn [join]. rewrite (split_on_no_byte_whole _ _ Hc). destruct t; [congruence|reflexivity].
  - change (join [COMMA; SP] (t :: u :: us)) with (t ++ COMMA :: (SP :: join [COMMA; SP] (u :: us))).
    rewrite (split_on_app_delim COMMA t _ Hc).
    replace (SP :: join [COMMA; SP] (u :: us)) with (join [COMMA; SP] ((SP :: u : bytes) :: us))
      by (destruct us; reflexivity).
    destruct t as [|a t']; [congruence|]. cbn [drop_last_empty map].
    rewrite (IH (SP :: u) Hu) by discriminate. rewrite trim_sp, Tu, Lu. reflexivity.
Qed.

Theorem value_tokens_join toks :
  Forall (fun t => normal_token t /\ t <> []) toks ->
  value_tokens (join [COMMA; SP] toks) = toks.
Proof.
  intros H. destruct H as [|t ts [[Hc [Ht Hl]] Htne] Hts]; [reflexivity|].
  rewrite (tokens_of_joined t ts Hc Htne Hts), Ht, Hl. reflexivity.
Qed.

Lemma filtered_tokens_ok hs n :
  Forall (fun t => normal_token t /\ t <> []) (filter nonempty (header_tokens hs n)).
Proof.
  apply Forall_forall. intros x Hx. apply filter_In in Hx as [Hx Hne].
  split; [|intros ->; discriminate Hne].
  exact (proj1 (Forall_forall _ _) (header_tokens_normal hs n) x Hx).
Qed.

Definition FRAMING : list bytes := [CONTENT_LENGTH; TRANSFER_ENCODING; TRAILER].

Lemma framing_outside h : negb (is_framing_name (fst h)) = outside FRAMING h.
Proof.
  unfold is_framing_name, outside, FRAMING. simpl. rewrite orb_false_r, orb_assoc. reflexivity.
Qed.

Lemma tr_cl : name_eq TRAILER CONTENT_LENGTH = false. Proof. reflexivity. Qed.
Lemma tr_te : name_eq TRAILER TRANSFER_ENCODING = false. Proof. reflexivity. Qed.

Lemma filtered_trailer_none T n :
  existsb (name_eq n) FRAMING = true ->
  header_multi_value (filter (fun h => negb (is_framing_name (fst h))) T) n = [].
Proof.
  intros Hn. apply hmv_filter_none. intros h Hh.
  rewrite framing_outside. exact (excludes_outside FRAMING n Hn h Hh).
Qed.

(* Seen through a test that selects neither Transfer-Encoding nor Trailer headers, the rewrite
   only appends: the kept trailer fields, then the new Content-Length. *)
Lemma filter_dechunk q H T body :
  excludes q TRANSFER_ENCODING -> excludes q TRAILER ->
  filter q (dechunk_headers H T body) =
  filter q ((H ++ filter (fun h => negb (is_framing_name (fst h))) T)
            ++ [(CONTENT_LENGTH, show_dec (N.of_nat (length body)))]).
Proof.
  intros Hte Htr. unfold dechunk_headers, add_header. cbv zeta.
  rewrite (filter_remove_excl q _ TRAILER Htr), 2 filter_app. f_equal.
  destruct (removelast _); [apply filter_remove_excl|apply filter_set_excl]; exact Hte.
Qed.

Section Dechunk.
  Variables (H T : list header) (body : bytes).

  Let T' := filter (fun h => negb (is_framing_name (fst h))) T.
  Let toks := removelast (filter nonempty (header_tokens H TRANSFER_ENCODING)).
  Let final := dechunk_headers H T body.

  Lemma dechunk_tokens_source :
    header_tokens (H ++ T') TRANSFER_ENCODING = header_tokens H TRANSFER_ENCODING.
  Proof.
    rewrite !header_tokens_hmv, hmv_app. unfold T'.
    rewrite (filtered_trailer_none T TRANSFER_ENCODING eq_refl). rewrite app_nil_r. reflexivity.
  Qed.

  (* Content-Length: exactly one value, the decoded body length -- given that the original
     headers had none (the chunked framing is only chosen then) *)
  Theorem dechunk_content_length :
    header_value H CONTENT_LENGTH = None ->
    header_multi_value final CONTENT_LENGTH = [show_dec (N.of_nat (length body))].
  Proof.
    intros Hcl. rewrite header_value_hmv in Hcl.
    transitivity (header_multi_value ((H ++ T') ++ [(CONTENT_LENGTH, show_dec (N.of_nat (length body)))])
                                     CONTENT_LENGTH).
    { unfold header_multi_value. f_equal. apply filter_dechunk; apply excludes_other; reflexivity. }
    rewrite !hmv_app, hmv_single. unfold T'. rewrite (filtered_trailer_none T CONTENT_LENGTH eq_refl).
    cbn [fst snd]. rewrite name_eq_refl.
    destruct (header_multi_value H CONTENT_LENGTH); [reflexivity|discriminate].
  Qed.

  (* Transfer-Encoding: one header holding the remaining codings joined with ", ", or no
     header at all when none remain *)
  Theorem dechunk_transfer_encoding :
    header_multi_value final TRANSFER_ENCODING =
    match toks with [] => [] | _ => [join [COMMA; SP] toks] end.
  Proof.
    unfold final, dechunk_headers. fold T'. rewrite dechunk_tokens_source. fold toks.
    rewrite hmv_remove_other by reflexivity. unfold add_header. rewrite hmv_app, hmv_single.
    cbn [fst snd]. change (name_eq CONTENT_LENGTH TRANSFER_ENCODING) with false. rewrite app_nil_r.
    destruct toks.
    - apply hmv_remove_same.
    - apply hmv_set_same.
  Qed.

  Theorem dechunk_no_trailer : has_header final TRAILER = false.
  Proof. apply has_header_hmv. unfold final, dechunk_headers. apply hmv_remove_same. Qed.

  (* every other header: the original ones, then the non-framing trailer fields, in order,
     names and values untouched *)
  Theorem dechunk_others :
    filter (outside FRAMING) final = filter (outside FRAMING) H ++ filter (outside FRAMING) T.
  Proof.
    unfold final. rewrite filter_dechunk by (apply excludes_outside; reflexivity).
    rewrite 2 filter_app. cbn [filter].
    change (outside FRAMING (CONTENT_LENGTH, _)) with false. rewrite app_nil_r.
    f_equal. apply filter_filter_all. intros h Hh. rewrite framing_outside. exact Hh.
  Qed.
End Dechunk.

Theorem dechunk_codings_listed H T body :
  let toks := removelast (filter nonempty (header_tokens H TRANSFER_ENCODING)) in
  header_tokens (dechunk_headers H T body) TRANSFER_ENCODING = toks.
Proof.
  cbv zeta. rewrite header_tokens_hmv. rewrite (dechunk_transfer_encoding H T body).
  pose proof (Forall_removelast' _ _ (filtered_tokens_ok H TRANSFER_ENCODING)) as HF.
  destruct (removelast (filter nonempty (header_tokens H TRANSFER_ENCODING))) as [|t ts]; [reflexivity|].
  cbn [flat_map]. rewrite app_nil_r. apply value_tokens_join. exact HF.
Qed.

(* framing fields carried in the trailer cannot alter anything *)
Theorem dechunk_trailer_framing_ignored H T body :
  dechunk_headers H T body =
  dechunk_headers H (filter (fun h => negb (is_framing_name (fst h))) T) body.
Proof.
  unfold dechunk_headers. rewrite filter_filter_all; [reflexivity|]. intros h Hh. exact Hh.
Qed.

(* the parser stores exactly this rewriting when a chunked body completes *)
Lemma resp_chunked_headers st cs buf st1 c :
  resp_chunked st cs buf = (st1, Complete c) ->
  exists cs', chunk_decode cs buf = (cs', Complete c) /\
              s_headers st1 = dechunk_headers (s_headers st) (c_trailer cs') (c_buffer cs') /\
              s_body st1 = c_buffer cs'.
Proof.
  unfold resp_chunked. destruct (chunk_decode cs buf) as [cs' [k|k|e]]; try discriminate.
  intros H. inversion H; subst. exists cs'. repeat split.
Qed.

Definition CODING_NAMES : list bytes := [CONTENT_ENCODING; CONTENT_LENGTH'].

Lemma cl_ce : name_eq CONTENT_LENGTH' CONTENT_ENCODING = false. Proof. reflexivity. Qed.

Section Decode.
  Variables gunzip inflate_raw inflate_zlib : bytes -> option bytes.
  Notation decode_body := (decode_body gunzip inflate_raw inflate_zlib).
  Notation decode_loop := (decode_loop gunzip inflate_raw inflate_zlib).

  Definition recognised (c : bytes) : bool := (bytes_eqb c GZIP || bytes_eqb c DEFLATE)%bool.

  (* undoing a list of recognised codings, outermost (last listed) first *)
  Fixpoint undo (rcs : list bytes) (body : bytes) : option bytes :=
    match rcs with
    | [] => Some body
    | c :: rest =>
      match (if bytes_eqb c GZIP then gunzip body
             else deflate_decode inflate_raw inflate_zlib body) with
      | Some b => undo rest b
      | None => None
      end
    end.

  (* one turn of the loop: a recognised coding is undone as in [undo], anything else stops it *)
  Lemma decode_loop_step c rest body :
    decode_loop (c :: rest) body =
    if recognised c
    then match (if bytes_eqb c GZIP then gunzip body
                else deflate_decode inflate_raw inflate_zlib body) with
         | Some b => decode_loop rest b
         | None => None
         end
    else Some (c :: rest, body).
  Proof.
    cbn [decode_loop]. unfold recognised.
    destruct (bytes_eqb c GZIP); [reflexivity|]. destruct (bytes_eqb c DEFLATE); reflexivity.
  Qed.

  (* the loop undoes a maximal run of recognised codings from the end and hands back the
     rest untouched *)
  Lemma decode_loop_kept rc body rrem b :
    decode_loop rc body = Some (rrem, b) ->
    exists undone, rc = undone ++ rrem /\ forallb recognised undone = true /\
                   match rrem with [] => True | c :: _ => recognised c = false end /\
                   undo undone body = Some b.
  Proof.
    revert body. induction rc as [|c rc IH]; intros body H.
    - injection H as <- <-. exists []. repeat split.
    - rewrite decode_loop_step in H. destruct (recognised c) eqn:R.
      + destruct (if bytes_eqb c GZIP then _ else _) as [b1|] eqn:S; [|discriminate].
        destruct (IH _ H) as [u [-> [Hu [Hr Hb]]]]. exists (c :: u).
        cbn [app forallb undo]. rewrite R, S. repeat split; assumption.
      + injection H as <- <-. exists []. repeat split. exact R.
  Qed.

  Lemma decode_loop_undo u rrem body :
    forallb recognised u = true ->
    match rrem with [] => True | c :: _ => recognised c = false end ->
    decode_loop (u ++ rrem) body =
    match undo u body with Some b => Some (rrem, b) | None => None end.
  Proof.
    revert body. induction u as [|c u IH]; intros body Hu Hr.
    - cbn [app undo]. destruct rrem as [|c r]; [reflexivity|]. rewrite decode_loop_step, Hr. reflexivity.
    - cbn [forallb] in Hu. apply andb_prop in Hu as [Hc Hu].
      cbn [app undo]. rewrite decode_loop_step, Hc.
      destruct (if bytes_eqb c GZIP then _ else _); [apply IH; assumption|reflexivity].
  Qed.

  (* C14, success: Content-Encoding lists exactly the kept tokens (one header, joined with
     ", "; absent when nothing is kept), Content-Length is the length of the returned body,
     every other header is unchanged and in order *)
  Theorem decode_body_success hs body hs' b :
    decode_body hs body = Some (hs', b) ->
    exists kept undone,
      header_tokens hs CONTENT_ENCODING = kept ++ undone /\
      forallb recognised undone = true /\
      match rev kept with [] => True | c :: _ => recognised c = false end /\
      header_multi_value hs' CONTENT_ENCODING =
        match kept with [] => [] | _ => [join [COMMA; SP] kept] end /\
      header_multi_value hs' CONTENT_LENGTH' = [show_dec (N.of_nat (length b))] /\
      filter (outside CODING_NAMES) hs' = filter (outside CODING_NAMES) hs /\
      undo (rev undone) body = Some b.
  Proof.
    unfold decode_body.
    destruct (decode_loop (rev (header_tokens hs CONTENT_ENCODING)) body) as [[rrem b1]|] eqn:E;
      [|discriminate].
    intros H. injection H as <- <-.
    destruct (decode_loop_kept _ _ _ _ E) as [u [Hrev [Hu [Hr Hb]]]].
    exists (rev rrem), (rev u). rewrite !rev_involutive. repeat split; try assumption.
    - rewrite <- rev_app_distr, <- Hrev, rev_involutive. reflexivity.
    - rewrite forallb_rev. exact Hu.
    - rewrite hmv_set_other by reflexivity.
      destruct (rev rrem); [apply hmv_remove_same|apply hmv_set_same].
    - apply hmv_set_same.
    - rewrite others_set by reflexivity.
      destruct (rev rrem); [apply others_remove|apply others_set]; reflexivity.
  Qed.

  (* and conversely: when the maximal recognised suffix can be undone, decode_body succeeds *)
  Theorem decode_body_complete hs body kept undone b :
    header_tokens hs CONTENT_ENCODING = kept ++ undone ->
    forallb recognised undone = true ->
    match rev kept with [] => True | c :: _ => recognised c = false end ->
    undo (rev undone) body = Some b ->
    exists hs', decode_body hs body = Some (hs', b).
  Proof.
    intros Ht Hu Hk Hun. unfold decode_body. rewrite Ht, rev_app_distr.
    rewrite (decode_loop_undo (rev undone) (rev kept) body).
    - rewrite Hun. eauto.
    - rewrite forallb_rev. exact Hu.
    - exact Hk.
  Qed.

  (* C14, failure: decode_body answers None only when a recognised coding could not be undone.
     The model returns no header list then, which is how it says that the caller's list is
     left as it was ("atomic"); the statement itself is about the loop only *)
  Theorem decode_body_failure_atomic hs body :
    decode_body hs body = None ->
    decode_loop (rev (header_tokens hs CONTENT_ENCODING)) body = None.
  Proof.
    unfold decode_body. destruct (decode_loop _ body) as [[r b]|]; [discriminate|reflexivity].
  Qed.
End Decode.

