(* LimitsNone.v -- setting a limit to None disables exactly that limit (C08): a run of
   Request::parse that does not trip limit X gives the same answer and the same parser state
   when X is None, the other two limits unchanged.  And a size rejection is issued only when the
   corresponding limit is really exceeded (the other half of "each limit is exact at its boundary
   value"): corollaries of the rejection theorem of C03. *)
From Coq Require Import Lia.
From Http Require Import Model.Bytes Model.Num Model.Headers Model.Request
     Proofs.HeaderGrammarProofs Proofs.ReqResume Proofs.Limits Spec.ChunkedGrammar
     Spec.HeaderGrammar Spec.RequestGrammar Spec.Rejections Proofs.BytesLemmas Proofs.ReqRejects.

Lemma over_limit_none n : over_limit n None = false.
Proof. reflexivity. Qed.

Lemma hdr_step_no_limit lim s :
  hdr_step lim s = SErr HTooLong \/ hdr_step lim s = hdr_step None s.
Proof.
  unfold hdr_step. destruct s as [|a s']; [right; reflexivity|].
  destruct (find_crlf (a :: s')) as [lt|].
  - destruct (over_limit (lt + 2) lim); [left; reflexivity|right; reflexivity].
  - destruct (over_limit _ lim); [left; reflexivity|right; reflexivity].
Qed.

Lemma hdr_loop_no_limit f lim : forall s acc off,
  hdr_loop f lim s acc off = HError HTooLong \/ hdr_loop f lim s acc off = hdr_loop f None s acc off.
Proof.
  induction f as [|f IH]; intros s acc off; [right; reflexivity|].
  rewrite !hdr_loop_step.
  destruct (hdr_step_no_limit lim s) as [E|E]; rewrite E; [left; reflexivity|].
  destruct (hdr_step None s) as [|e|c|h c]; try (right; reflexivity).
  apply IH.
Qed.

Lemma hdr_parse_no_limit lim hs s :
  hdr_parse lim hs s <> HError HTooLong -> hdr_parse None hs s = hdr_parse lim hs s.
Proof.
  unfold hdr_parse. intros H. destruct (hdr_loop_no_limit (S (length s)) lim s hs 0) as [E|E];
    [contradiction|symmetry; exact E].
Qed.

Lemma over_limit_exceeded k lim :
  over_limit k lim = true -> exists n, lim = Some n /\ (n < N.of_nat k)%N.
Proof.
  unfold over_limit. destruct lim as [n|]; [|discriminate]. intros E. apply N.ltb_lt in E. eauto.
Qed.

Section WithUri.
  Variable uri : Type.
  Variable uri_parse : bytes -> option uri.
  Notation D := (req_dispatch uri uri_parse).
  Notation P := (req_parse uri uri_parse).

  (* a rejection of the phase functions is a rejection of parse *)
  Lemma dispatch_not_rejected cfg st buf e :
    snd (P cfg st buf) <> Reject e -> snd (D cfg st buf) <> Reject e.
  Proof.
    intros H E. apply H. rewrite req_parse_eq.
    destruct (D cfg st buf) as [s1 [k|k|e']]; cbn [snd] in *; try discriminate. exact E.
  Qed.

  Lemma req_headers_no_header_limit cfg st buf :
    snd (req_headers uri cfg st buf) <> Reject (EHeaders HTooLong) ->
    req_headers uri (with_hl cfg None) st buf = req_headers uri cfg st buf.
  Proof.
    unfold req_headers. cbn [hl with_hl]. intros H.
    assert (E : hdr_parse None (r_headers st) (strip_cr buf) = hdr_parse (hl cfg) (r_headers st) (strip_cr buf)).
    { apply hdr_parse_no_limit. intros E. rewrite E in H. apply H. reflexivity. }
    rewrite E. reflexivity.
  Qed.

  (* the request-line phase under a configuration [cfg'] with the same request-line limit, whose
     count agrees with that of [cfg] unless the latter fails (which is then the rejection [e]),
     and whose header phase agrees on the runs that are not rejected with [e] *)
  Lemma req_line_same cfg cfg' st buf e :
    rl cfg' = rl cfg ->
    (forall t c, count_bytes cfg' t c = count_bytes cfg t c \/
                 (count_bytes cfg t c = None /\ e = EMessageTooLong)) ->
    (forall st' b, snd (req_headers uri cfg st' b) <> Reject e ->
                   req_headers uri cfg' st' b = req_headers uri cfg st' b) ->
    snd (req_line uri uri_parse cfg st buf) <> Reject e ->
    req_line uri uri_parse cfg' st buf = req_line uri uri_parse cfg st buf.
  Proof.
    intros Hrl Hc Hh. unfold req_line. rewrite Hrl.
    destruct (find_crlf buf) as [k|]; [|reflexivity].
    destruct (over_limit k (rl cfg)); [reflexivity|].
    destruct (negb _); [reflexivity|].
    destruct (Hc (r_total st) (N.of_nat (k + 2))) as [E|[E ->]]; rewrite E.
    2:{ intros H. exfalso. apply H. reflexivity. }
    destruct (count_bytes cfg _ _) as [t|]; [|reflexivity].
    destruct (parse_request_line _ _ _) as [[m u]|er]; [|reflexivity].
    intros H. rewrite Hh; [reflexivity|].
    intros E2. apply H. destruct (req_headers uri cfg _ _) as [sh [c|c|eh]]; [discriminate E2..|exact E2].
  Qed.

  Theorem no_header_line_limit cfg st buf :
    snd (P cfg st buf) <> Reject (EHeaders HTooLong) ->
    P (with_hl cfg None) st buf = P cfg st buf.
  Proof.
    intros H. apply dispatch_not_rejected in H.
    assert (HD : D (with_hl cfg None) st buf = D cfg st buf).
    { unfold req_dispatch in *. destruct (r_phase st).
      - apply (req_line_same cfg (with_hl cfg None) st buf (EHeaders HTooLong)); [reflexivity| | |exact H].
        + intros t c. left. reflexivity.
        + intros st' b. apply req_headers_no_header_limit.
      - apply req_headers_no_header_limit. exact H.
      - reflexivity. }
    rewrite !req_parse_eq. rewrite HD. reflexivity.
  Qed.

  Lemma count_bytes_no_max cfg t c :
    count_bytes cfg t c = None \/ count_bytes cfg t c = count_bytes (with_mm cfg None) t c.
  Proof.
    unfold count_bytes. cbn [mm with_mm]. destruct (mm cfg) as [m|]; [|right; reflexivity].
    destruct (N.ltb m _); [left; reflexivity|right; reflexivity].
  Qed.

  Lemma req_headers_no_max cfg st buf :
    snd (req_headers uri cfg st buf) <> Reject EMessageTooLong ->
    req_headers uri (with_mm cfg None) st buf = req_headers uri cfg st buf.
  Proof.
    unfold req_headers. cbn [hl with_mm].
    destruct (hdr_parse (hl cfg) (r_headers st) (strip_cr buf)) as [hs c|hs c|e]; [| |reflexivity].
    - destruct (count_bytes_no_max cfg (r_total st) (N.of_nat c)) as [E|E]; rewrite E.
      { intros H. exfalso. apply H. reflexivity. }
      destruct (count_bytes (with_mm cfg None) (r_total st) (N.of_nat c)) as [t|]; [|reflexivity].
      destruct (header_value hs CONTENT_LENGTH) as [v|]; [|reflexivity].
      destruct (parse_dec v) as [n|]; [|reflexivity].
      destruct (count_bytes_no_max cfg t n) as [E2|E2]; rewrite E2.
      { intros H. exfalso. apply H. reflexivity. }
      reflexivity.
    - destruct (count_bytes_no_max cfg (r_total st) (N.of_nat c)) as [E|E]; rewrite E.
      { intros H. exfalso. apply H. reflexivity. }
      reflexivity.
  Qed.

  Theorem no_max_message_size cfg st buf :
    snd (P cfg st buf) <> Reject EMessageTooLong ->
    P (with_mm cfg None) st buf = P cfg st buf.
  Proof.
    intros H.
    pose proof (dispatch_not_rejected _ _ _ _ H) as H'.
    assert (HD : D (with_mm cfg None) st buf = D cfg st buf).
    { unfold req_dispatch in *. destruct (r_phase st).
      - apply (req_line_same cfg (with_mm cfg None) st buf EMessageTooLong); [reflexivity| | |exact H'].
        + intros t c. destruct (count_bytes_no_max cfg t c) as [E|E]; [right; auto|left; auto].
        + intros st' b. apply req_headers_no_max.
      - apply req_headers_no_max. exact H'.
      - reflexivity. }
    rewrite !req_parse_eq. rewrite HD.
    destruct (D cfg st buf) as [s1 [k|k|e]] eqn:E; try reflexivity.
    unfold presented_ok at 1. cbn [mm with_mm].
    destruct (presented_ok cfg (r_total s1) (length buf - k)) eqn:PO; [reflexivity|].
    exfalso. apply H. rewrite req_parse_eq, E, PO. reflexivity.
  Qed.

  Theorem no_request_line_limit cfg st buf :
    snd (P cfg st buf) <> Reject ERequestLineTooLong ->
    P (with_rl cfg None) st buf = P cfg st buf.
  Proof.
    intros H.
    pose proof (dispatch_not_rejected _ _ _ _ H) as H'.
    rewrite !req_parse_eq. rewrite (no_request_line_limit_dispatch uri uri_parse cfg st buf H'). reflexivity.
  Qed.
  (* what a defect with the category of one of the three limits consists of; the size [x]
     that does not fit is within the bytes presented, or is head plus declared body *)
  Lemma request_defect_limit cfg s e :
    request_defect uri uri_parse cfg s e ->
    match e with
    | ERequestLineTooLong =>
        (find_crlf s = None /\ over_limit (length (strip_cr s)) (rl cfg) = true) \/
        exists l rest, s = l ++ CRLF ++ rest /\ is_line l /\ over_limit (length l) (rl cfg) = true
    | EHeaders h =>
        exists l rest, s = l ++ CRLF ++ rest /\ block_defect (hl cfg) (strip_cr rest) h
    | EMessageTooLong =>
        exists x, ~ within_max cfg x /\
          ((x <= N.of_nat (length s))%N \/
           exists l rest fs v n, s = l ++ CRLF ++ rest /\
             header_value (map field_header fs) CONTENT_LENGTH = Some v /\ parse_dec v = Some n /\
             x = (N.of_nat (length l + 2 + length (header_block fs)) + n)%N)
    | _ => True
    end.
  Proof.
    intros H.
    destruct H as [s F O|s F O W|l rest e Hl Hd|l rest meth u e LG BD|l rest meth u LG BP W
                   |l rest meth u fs LG BC W|l rest meth u fs v LG BC W HV PD
                   |l rest meth u fs v n LG BC W HV PD Wn]; try exact I.
    - auto.
    - exists (N.of_nat (length s)). split; [exact W|]. left. apply N.le_refl.
    - destruct Hd as [l O|l O U|l O U W|l e O U W Hs]; try exact I.
      + right. eauto.
      + exists (N.of_nat (length l + 2)). split; [exact W|]. left. rewrite line_length. lia.
      + destruct Hs; exact I.
    - eauto.
    - exists (N.of_nat (length (l ++ CRLF ++ rest))). split; [exact W|]. left. apply N.le_refl.
    - exists (N.of_nat (length l + 2 + length (header_block fs))). split; [exact W|]. left.
      destruct BC as [_ [x Hx]]. apply (f_equal (@length N)) in Hx. rewrite app_length in Hx.
      pose proof (strip_cr_length rest). rewrite line_length. lia.
    - exists (N.of_nat (length l + 2 + length (header_block fs)) + n)%N. split; [exact Wn|].
      right. exists l, rest, fs, v, n. auto.
  Qed.

  (* request-line limit: the line (terminated, without its CRLF) or the unterminated text so far
     (without a final CR) is longer than the limit *)
  Theorem request_line_too_long_only_if_exceeded cfg s st :
    P cfg req_init s = (st, Reject ERequestLineTooLong) ->
    exists n, rl cfg = Some n /\
      ((exists l rest, s = l ++ CRLF ++ rest /\ is_line l /\ (n < N.of_nat (length l))%N) \/
       (find_crlf s = None /\ (n < N.of_nat (length (strip_cr s)))%N)).
  Proof.
    intros H. apply request_reject_sound, request_defect_limit in H.
    destruct H as [[F O]|[l [rest [Hs [Hl O]]]]];
      destruct (over_limit_exceeded _ _ O) as [n [Hn Hlt]]; exists n; split; eauto 6.
  Qed.

  (* header-line limit: some line of the header block -- the first line of a field or the empty
     line, terminated or not -- is longer (with its CRLF) than the limit *)
  Theorem header_line_too_long_only_if_exceeded cfg s st :
    P cfg req_init s = (st, Reject (EHeaders HTooLong)) ->
    exists n k, hl cfg = Some n /\ (n < N.of_nat k)%N /\ k <= length s + 2.
  Proof.
    intros H. apply request_reject_sound, request_defect_limit in H.
    destruct H as [l [rest [-> [fs [r [_ [Hs [Hfd _]]]]]]]].
    pose proof (strip_cr_length rest) as Hsl.
    assert (Hr : length r <= length (l ++ CRLF ++ rest)).
    { apply (f_equal (@length N)) in Hs. rewrite app_length in Hs. rewrite line_length. lia. }
    inversion Hfd as [l1 rest1 e1 Hl1 Hld|f l1 rest1 e1 Hf Hl1 Hcd|s1 Hne Fc O]; subst.
    - inversion Hld as [l2 O|l2 O U|l2 O U Hne K|n0 v0 O U K G|n0 v0 O U Hn V]; subst.
      destruct (over_limit_exceeded _ _ O) as [n [Hn Hlt]]. exists n, (length l1 + 2).
      rewrite line_length in Hr. repeat split; [exact Hn|exact Hlt|lia].
    - inversion Hcd.
    - destruct (over_limit_exceeded _ _ O) as [n [Hn Hlt]]. exists n, (length r + 2).
      repeat split; [exact Hn|exact Hlt|lia].
  Qed.

  (* maximum message size: the bytes presented, or the bytes of request line and header block
     plus the declared body length, exceed the maximum *)
  Theorem message_too_long_only_if_exceeded cfg s st :
    P cfg req_init s = (st, Reject EMessageTooLong) ->
    exists m x, mm cfg = Some m /\ (m < x)%N /\
      ((x <= N.of_nat (length s))%N \/
       (exists l rest fs v n, s = l ++ CRLF ++ rest /\
          header_value (map field_header fs) CONTENT_LENGTH = Some v /\ parse_dec v = Some n /\
          x = N.min (N.of_nat (length l + 2 + length (header_block fs)) + n) USIZE_MAX)).
  Proof.
    intros H. apply request_reject_sound, request_defect_limit in H.
    destruct H as [x [W Hx]]. unfold within_max in W. destruct (mm cfg) as [m|]; [|tauto].
    exists m, (N.min x USIZE_MAX). split; [reflexivity|]. split; [lia|].
    destruct Hx as [Hx|[l [rest [fs [v [n [Hs [HV [PD ->]]]]]]]]]; [left; lia|right; eauto 10].
  Qed.
End WithUri.
