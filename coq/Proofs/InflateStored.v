(* InflateStored.v -- decoding inverts the stored-block encoders of Spec/DeflateStored.v, for every
   body, every partition into blocks and every nesting of the three containers (C13). *)
From Coq Require Import List NArith Arith Lia.
From Http Require Import Model.Bytes Model.Headers Model.Coding Model.Inflate Spec.DeflateStored
     Proofs.CodingGlue Proofs.InflateLocal Proofs.InflateTop Proofs.InflateC15.
Import ListNotations.

Lemma take_bytes_all c : forall out rest,
    take_bytes (length c) out ([], c ++ rest) = Ok (rev c ++ out) ([], rest).
Proof.
  induction c as [|x c IH]; intros out rest.
  - reflexivity.
  - cbn [length app take_bytes getbyte]. rewrite IH. cbn [rev]. rewrite <- app_assoc. reflexivity.
Qed.

Lemma getbits3_final (final : bool) tail :
  getbits 3 ([], (if final then 1 else 0)%N :: tail)
  = Ok (if final then 1 else 0)%N ([false; false; false; false; false], tail).
Proof. destruct final; reflexivity. Qed.

Lemma mod_div_256 x : (x mod 256 + 256 * (x / 256) = x)%N.
Proof. rewrite N.add_comm. symmetry. apply N.div_mod'. Qed.

Lemma stored_block_decodes cur chunk out rest :
  (N.of_nat (length chunk) <= 65535)%N ->
  let len := N.of_nat (length chunk) in
  stored_block out (cur, (len mod 256)%N :: (len / 256)%N :: ((65535 - len) mod 256)%N
                         :: ((65535 - len) / 256)%N :: chunk ++ rest)
  = Ok (rev chunk ++ out) ([], rest).
Proof.
  intros L len. unfold stored_block, align. cbn [snd getbyte]. rewrite !mod_div_256.
  replace (len + (65535 - len) =? 65535)%N with true by (symmetry; apply N.eqb_eq; lia).
  unfold len. rewrite Nat2N.id. apply take_bytes_all.
Qed.

Lemma blocks_stored_step f final chunk out rest :
  (N.of_nat (length chunk) <= 65535)%N ->
  blocks (S f) out ([], stored_blk final chunk ++ rest)
  = if final then Ok (rev chunk ++ out) ([], rest) else blocks f (rev chunk ++ out) ([], rest).
Proof.
  intros L. unfold stored_blk. cbn [app blocks]. rewrite getbits3_final.
  destruct final; cbn [N.odd N.div2]; rewrite (stored_block_decodes _ _ _ _ L); reflexivity.
Qed.

Lemma blocks_store_chunks chunks : chunks_ok chunks -> forall f out rest,
    length chunks < f ->
    blocks f out ([], store_chunks chunks ++ rest) = Ok (rev (concat chunks) ++ out) ([], rest).
Proof.
  induction chunks as [|c cs IH]; intros Hok f out rest Hf.
  - destruct f as [|f]; [lia|]. cbn [store_chunks].
    rewrite blocks_stored_step by (simpl; lia). reflexivity.
  - apply Forall_cons_iff in Hok. destruct Hok as [Hc Hcs].
    destruct f as [|f]; [simpl in Hf; lia|]. destruct cs as [|c2 cs'].
    + cbn [store_chunks]. rewrite blocks_stored_step by exact Hc.
      cbn [concat]. rewrite app_nil_r. reflexivity.
    + change (store_chunks (c :: c2 :: cs')) with (stored_blk false c ++ store_chunks (c2 :: cs')).
      rewrite <- app_assoc. rewrite blocks_stored_step by exact Hc.
      rewrite (IH Hcs) by (simpl in *; lia).
      change (concat (c :: c2 :: cs')) with (c ++ concat (c2 :: cs')).
      rewrite rev_app_distr, <- app_assoc. reflexivity.
Qed.

Lemma stored_blk_length final c : length (stored_blk final c) = 5 + length c.
Proof. reflexivity. Qed.

Lemma store_chunks_length chunks : length chunks * 5 <= length (store_chunks chunks).
Proof.
  induction chunks as [|c cs IH].
  - simpl. lia.
  - destruct cs as [|c2 cs'].
    + cbn [store_chunks]. rewrite stored_blk_length. simpl. lia.
    + change (store_chunks (c :: c2 :: cs')) with (stored_blk false c ++ store_chunks (c2 :: cs')).
      rewrite app_length, stored_blk_length.
      change (length (c :: c2 :: cs')) with (S (length (c2 :: cs'))). lia.
Qed.

Lemma inflate_store_chunks chunks f rest :
  chunks_ok chunks -> length chunks < f ->
  inflate_fuel f (store_chunks chunks ++ rest) = Ok (concat chunks) ([], rest).
Proof.
  intros Hok Hf. unfold inflate_fuel. rewrite (blocks_store_chunks _ Hok) by exact Hf.
  rewrite app_nil_r, rev_append_rev, app_nil_r, rev_involutive. reflexivity.
Qed.

(* every block takes at least five bytes and fuel_for gives eight rounds per byte *)
Lemma store_chunks_fuel chunks pre post :
  length chunks < fuel_for (pre ++ store_chunks chunks ++ post).
Proof.
  unfold fuel_for. rewrite !app_length. pose proof (store_chunks_length chunks). lia.
Qed.

Theorem raw_stored_inverts d e : stored_raw d e -> inflate_raw_model e = Some d /\ zlib_header e = false.
Proof.
  intros [chunks [Hok [Ed Ee]]]. subst d e. split.
  - unfold inflate_raw_model.
    rewrite <- (app_nil_r (store_chunks chunks)) at 2.
    rewrite inflate_store_chunks; [reflexivity | exact Hok |].
    pose proof (store_chunks_fuel chunks [] []) as H. simpl in H. rewrite app_nil_r in H. exact H.
  - destruct chunks as [|c [|c2 cs]]; reflexivity.
Qed.

Theorem zlib_stored_inverts d e : stored_zlib d e -> inflate_zlib_model e = Some d /\ zlib_header e = true.
Proof.
  intros [chunks [cmf [flg [a4 [Hok [Ed [Hh [L4 [Ha Ee]]]]]]]]]. subst e. split.
  - unfold inflate_zlib_model. rewrite inflate_zlib_fuel_eq. unfold container. cbn [zlib_hdr]. rewrite Hh.
    unfold hok. rewrite inflate_store_chunks; [| exact Hok | exact (store_chunks_fuel chunks [cmf; flg] a4)].
    rewrite <- (app_nil_r a4), (take_app _ _ _ L4). unfold zlib_chk. rewrite <- Ed, Ha, N.eqb_refl. reflexivity.
  - rewrite zlib_header_ok_eq. exact Hh.
Qed.

Theorem gzip_stored_inverts d e : stored_gzip d e -> gunzip_model e = Some d.
Proof.
  intros [chunks [h [foot [Hok [Ed [Hh [L8 [C1 [C2 Ee]]]]]]]]]. subst e.
  unfold gunzip_model. rewrite gunzip_fuel_eq. unfold container. rewrite Hh.
  rewrite inflate_store_chunks; [| exact Hok | apply store_chunks_fuel].
  rewrite <- (app_nil_r foot), (take_app _ _ _ L8). unfold gzip_chk, M32. rewrite <- Ed, C1, C2, !N.eqb_refl. reflexivity.
Qed.

Definition stored_enc (f : format) (d e : bytes) : Prop :=
  match f with Gz => stored_gzip d e | Zl => stored_zlib d e | Raw => stored_raw d e end.

Theorem decode_inverts_stored_stack hs fs d e :
  Enc stored_enc fs d e ->
  header_tokens hs CONTENT_ENCODING = map coding_token fs ->
  exists hs', decode_body_m hs e = Some (hs', d).
Proof.
  apply (decode_inverts_stack gunzip_model inflate_raw_model inflate_zlib_model stored_enc).
  - intros d0 e0 H. exact (gzip_stored_inverts _ _ H).
  - intros d0 e0 H. exact (zlib_stored_inverts _ _ H).
  - intros d0 e0 H. exact (raw_stored_inverts _ _ H).
Qed.

(* the plain ten-byte member header, and one with a file name, are headers the parser accepts *)
Lemma gz_header_plain mt xfl os : (mt = [0;0;0;0]%N) -> gz_header_ok ([31; 139; 8; 0]%N ++ mt ++ [xfl; os]).
Proof. intros ->. intros y. reflexivity. Qed.

Lemma gz_header_named xfl os : gz_header_ok ([31; 139; 8; 8; 0; 0; 0; 0; xfl; os; 97; 46; 116; 120; 116; 0]%N).
Proof. intros y. reflexivity. Qed.
