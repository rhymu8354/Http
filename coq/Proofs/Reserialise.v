(* Reserialise.v -- whatever the parsers accept can be re-serialised to an equivalent message (C11).
   Parsed header fields are well-formed (hdr_wf0), and the header algebra keeps them so: joining
   tokens, set_header, remove_header, hence the de-chunking rewrite.  With that, accepted requests
   and accepted responses (chunked ones through the rewritten header list) are well-formed
   values, which RoundTrip shows to round-trip. *)
From Coq Require Import Lia.
From Http Require Import Model.Bytes Model.Utf8 Model.Num Model.Headers Model.Request
     Model.Response Spec.HeaderGrammar Spec.ChunkedGrammar Spec.RequestGrammar Spec.ResponseGrammar
     Proofs.BytesLemmas Proofs.HeaderAlgebra Proofs.HeaderGrammarProofs Proofs.ReqGrammar
     Proofs.RespGrammar Proofs.Numeric Proofs.Utf8Lemmas Proofs.RoundTrip Proofs.Rewrite
     Proofs.CaseLemmas.

(* parsed header fields are well-formed values: legal name, legal trimmed value *)
Definition hdr_wf0 (h : header) : Prop :=
  name_ok (fst h) /\ forallb is_vchar (snd h) = true /\ trim (snd h) = snd h.

Lemma unfolded_vchars cs : forall v,
  forallb is_vchar v = true -> Forall cont_ok cs -> forallb is_vchar (unfolded v cs) = true.
Proof.
  induction cs as [|c cs IH]; intros v Hv Hcs; [exact Hv|].
  inversion Hcs as [|? ? Hc Hcs']; subst. cbn [unfolded fold_left]. apply IH; [|exact Hcs'].
  rewrite !forallb_app. rewrite Hv. cbn [forallb]. change (is_vchar SP) with true. cbn [andb].
  apply forallb_trim. destruct c as [|b l]; [contradiction|]. destruct Hc as [_ Hc]. exact Hc.
Qed.

Lemma parsed_field_wf lim f : field_ok lim f -> hdr_wf0 (field_header f).
Proof.
  intros [Hn [Hv [Hc _]]]. unfold hdr_wf0, field_header. cbn [fst snd].
  split; [exact Hn|]. split; [|apply trim_idem].
  apply forallb_trim. apply unfolded_vchars; assumption.
Qed.

Lemma parsed_fields_wf lim fs : Forall (field_ok lim) fs -> Forall hdr_wf0 (map field_header fs).
Proof.
  induction 1 as [|f fs Hf _ IH]; [constructor|]. cbn [map]. constructor; [|exact IH].
  eapply parsed_field_wf. exact Hf.
Qed.

Definition lines_fit (lim : option N) (hs : list header) : Prop :=
  Forall (fun h => over_limit (length (header_line h) + 2) lim = false) hs.

Lemma hdr_wf_of_wf0_fit lim hs : Forall hdr_wf0 hs -> lines_fit lim hs -> Forall (hdr_wf lim) hs.
Proof.
  intros H1 H2. induction H1 as [|h hs [Hn [Hv Ht]] _ IH]; [constructor|].
  inversion H2; subst. constructor; [|apply IH; assumption].
  unfold hdr_wf. repeat split; try assumption; apply Hn.
Qed.

Lemma edge_ok_lower s : edge_ok is_ws s -> edge_ok is_ws (lower s).
Proof.
  intros [H1 H2]. split.
  - destruct s as [|a t]; [exact I|]. cbn [lower map]. rewrite is_ws_lower. exact H1.
  - unfold lower. rewrite <- map_rev. destruct (rev s) as [|a t]; [exact I|].
    cbn [map]. rewrite is_ws_lower. exact H2.
Qed.

Lemma edge_ok_join sep p ps :
  Forall (fun q => q <> [] /\ edge_ok is_ws q) (p :: ps) -> edge_ok is_ws (join sep (p :: ps)).
Proof.
  revert p. induction ps as [|q qs IH]; intros p HF.
  - inversion HF as [|? ? [_ H] _]; subst. exact H.
  - inversion HF as [|? ? [Hne [Hp1 Hp2]] HF']; subst.
    inversion HF' as [|? ? [Hq _] _]; subst.
    pose proof (IH q HF') as [_ J2].
    change (join sep (p :: q :: qs)) with (p ++ sep ++ join sep (q :: qs)). split.
    + destruct p as [|a t]; [congruence|]. exact Hp1.
    + rewrite app_assoc.
      assert (Hj : join sep (q :: qs) <> []).
      { destruct qs; [exact Hq|]. cbn [join]. destruct q; [congruence|discriminate]. }
      destruct (rev (join sep (q :: qs))) as [|x t] eqn:R.
      { exfalso. apply Hj. apply (f_equal (@rev N)) in R. rewrite rev_involutive in R. exact R. }
      rewrite rev_app_distr, R. exact J2.
Qed.

Lemma split_on_forallb (q : N -> bool) c s :
  forallb q s = true -> Forall (fun p => forallb q p = true) (split_on c s).
Proof.
  induction s as [|a t IH]; intros H; [repeat constructor|].
  cbn [forallb] in H. apply andb_prop in H as [Ha Ht]. specialize (IH Ht).
  cbn [split_on]. destruct (N.eqb a c); [constructor; [reflexivity|exact IH]|].
  destruct (split_on c t) as [|p ps]; [repeat constructor; cbn; rewrite Ha; reflexivity|].
  inversion IH; subst. constructor; [cbn [forallb]; rewrite Ha; assumption|assumption].
Qed.

Lemma value_tokens_ok v :
  forallb is_vchar v = true ->
  Forall (fun t => forallb is_vchar t = true /\ edge_ok is_ws t) (value_tokens v).
Proof.
  intros Hv. unfold value_tokens, split_terminator.
  pose proof (Forall_drop_last_empty _ _ (split_on_forallb is_vchar COMMA v Hv)) as HF.
  induction HF as [|p ps Hp _ IH]; [constructor|]. cbn [map]. constructor; [|exact IH]. split.
  - rewrite (forallb_lower is_vchar) by apply is_vchar_lower. apply forallb_trim. exact Hp.
  - apply edge_ok_lower. apply trim_edges.
Qed.

Lemma header_tokens_ok hs n :
  Forall hdr_wf0 hs -> Forall (fun t => forallb is_vchar t = true /\ edge_ok is_ws t) (header_tokens hs n).
Proof.
  intros H. unfold header_tokens, header_multi_value.
  induction H as [|h hs [_ [Hv _]] _ IH]; [constructor|].
  cbn [filter]. destruct (name_eq (fst h) n); [|exact IH].
  cbn [map flat_map]. apply Forall_app. split; [apply value_tokens_ok; exact Hv|exact IH].
Qed.

Lemma forallb_join (q : N -> bool) sep l :
  forallb q sep = true -> Forall (fun p => forallb q p = true) l -> forallb q (join sep l) = true.
Proof.
  intros Hs H. induction H as [|p ps Hp Hps IH]; [reflexivity|].
  destruct ps as [|p2 ps2]; [exact Hp|].
  change (join sep (p :: p2 :: ps2)) with (p ++ sep ++ join sep (p2 :: ps2)).
  rewrite !forallb_app, Hp, Hs, IH. reflexivity.
Qed.

Lemma joined_tokens_wf toks :
  Forall (fun t => nonempty t = true /\ forallb is_vchar t = true /\ edge_ok is_ws t) toks ->
  forallb is_vchar (join [COMMA; SP] toks) = true /\
  trim (join [COMMA; SP] toks) = join [COMMA; SP] toks.
Proof.
  intros HF. split.
  - apply forallb_join; [reflexivity|]. eapply Forall_impl; [|exact HF]. intros t [_ [H _]]. exact H.
  - apply trim_noop. destruct toks as [|p ps]; [split; exact I|].
    apply edge_ok_join. eapply Forall_impl; [|exact HF].
    intros t [H1 [_ H3]]. split; [intros ->; discriminate H1|exact H3].
Qed.

Lemma remove_header_wf hs n : Forall hdr_wf0 hs -> Forall hdr_wf0 (remove_header hs n).
Proof. apply incl_Forall, incl_filter. Qed.

Lemma set_header_aux_wf hs n v :
  forallb is_vchar v = true -> trim v = v -> Forall hdr_wf0 hs -> Forall hdr_wf0 (set_header_aux hs n v).
Proof.
  intros Hv Ht. induction 1 as [|h hs Hh Hhs IH]; [constructor|].
  cbn [set_header_aux]. destruct (name_eq (fst h) n).
  - constructor; [|apply remove_header_wf; exact Hhs].
    destruct Hh as [Hn _]. split; [exact Hn|]. split; assumption.
  - constructor; assumption.
Qed.

Lemma set_header_wf hs n v :
  name_ok n -> forallb is_vchar v = true -> trim v = v -> Forall hdr_wf0 hs ->
  Forall hdr_wf0 (set_header hs n v).
Proof.
  intros Hn Hv Ht H. unfold set_header. destruct (has_header hs n).
  - apply set_header_aux_wf; assumption.
  - apply Forall_app. split; [exact H|]. constructor; [|constructor]. split; [exact Hn|]. split; assumption.
Qed.

Lemma digits_wf d : forallb is_digit d = true -> forallb is_vchar d = true /\ trim d = d.
Proof.
  intros Hd. split; [apply (forallb_imp _ _ _ digit_vchar Hd)|].
  apply trim_noop, edge_ok_all. intros b Hb. rewrite forallb_forall in Hd.
  apply is_ws_false_graphic. pose proof (proj1 (between_spec _ _ _) (Hd b Hb)). lia.
Qed.

Theorem dechunk_headers_wf hs tr body :
  Forall hdr_wf0 hs -> Forall hdr_wf0 tr -> Forall hdr_wf0 (dechunk_headers hs tr body).
Proof.
  intros Hhs Htr. unfold dechunk_headers. cbv zeta.
  set (t := filter (fun h => negb (is_framing_name (fst h))) tr).
  assert (H1 : Forall hdr_wf0 (hs ++ t)).
  { apply Forall_app. split; [exact Hhs|apply (incl_Forall (incl_filter _ _)), Htr]. }
  apply remove_header_wf. unfold add_header. apply Forall_app. split.
  - set (toks := removelast (filter nonempty (header_tokens (hs ++ t) TRANSFER_ENCODING))).
    assert (HT : Forall (fun x => nonempty x = true /\ forallb is_vchar x = true /\ edge_ok is_ws x) toks).
    { apply Forall_removelast'.
      pose proof (header_tokens_ok (hs ++ t) TRANSFER_ENCODING H1) as HF.
      induction HF as [|x xs [Hx1 Hx2] _ IH]; [constructor|]. cbn [filter].
      destruct (nonempty x) eqn:E; [constructor; [split; [exact E|split; [exact Hx1|exact Hx2]]|exact IH]|exact IH]. }
    destruct toks as [|p ps] eqn:E; [apply remove_header_wf; exact H1|].
    destruct (joined_tokens_wf (p :: ps) HT) as [J1 J2].
    apply set_header_wf; [split; reflexivity|exact J1|exact J2|exact H1].
  - constructor; [|constructor]. split; [split; reflexivity|].
    destruct (show_dec_digits (N.of_nat (length body))) as [_ [D _]].
    cbn [snd]. apply digits_wf, D.
Qed.

Lemma chunked_trailer_wf c p t : IsChunked c p t -> Forall hdr_wf0 t.
Proof.
  induction 1 as [line block fields _ Ht|line n data rest payload fields _ _ _ _ IH]; [|exact IH].
  unfold is_trailer in Ht. destruct (hdr_parse_sound _ _ _ _ _ Ht) as [fs [[Hok _] [_ ->]]].
  cbn [app]. apply (parsed_fields_wf None fs Hok).
Qed.

Section Req.
  Variable uri : Type.
  Variable uri_parse : bytes -> option uri.
  Variable uri_show : uri -> bytes.
  Notation P := (req_parse uri uri_parse).

  (* the re-serialised request line, header lines (written without folding) and total size are
     within the configured limits *)
  Definition refits (cfg : rcfg) (v : req_value uri) : Prop :=
    over_limit (length (request_line (v_method v) (uri_show (v_target v)))) (rl cfg) = false /\
    lines_fit (hl cfg) (v_headers v) /\
    let head := N.of_nat (length (request_line (v_method v) (uri_show (v_target v))) + 2
                          + length (hdr_generate_nolimit (v_headers v))) in
    within_max cfg (head + N.of_nat (length (v_body v))).

  Theorem accepted_request_is_wf cfg x st c u :
    P cfg req_init x = (st, Complete c) -> r_target st = Some u ->
    uri_ok uri uri_parse uri_show u ->
    refits cfg (value_of uri st u) ->
    WfRequest uri uri_parse uri_show cfg (value_of uri st u).
  Proof.
    intros HP Ht Hu [Hrl [Hfit Hmax]].
    destruct (req_parse_sound uri uri_parse cfg x st c HP) as [u' [Ht' HI]].
    rewrite Ht in Ht'. inversion Ht'; subst u'. clear Ht'.
    destruct HI as [tstr [fs [Hm [Hline [[Hfs Hl2] [Hhs Hbody]]]]]].
    cbn [v_method v_target v_headers v_body value_of] in *.
    destruct Hline as [Hmne [Hmsp [_ [_ [_ [Hil [Hutf _]]]]]]].
    assert (Hg : method_ok (r_method st)).
    { split; [exact Hmsp|]. unfold request_line in Hil, Hutf. cbn [app] in Hil, Hutf. split.
      - eapply (utf8_valid_split (r_method st) SP); [reflexivity|exact Hutf].
      - apply (proj1 (is_line_iff _)) in Hil. eapply find_crlf_prefix_none. exact Hil. }
    unfold WfRequest. cbn [v_method v_target v_headers v_body value_of].
    split; [exact Hmne|]. split; [exact Hg|]. split; [exact Hu|]. split; [exact Hrl|].
    split; [apply hdr_wf_of_wf0_fit; [rewrite Hhs; eapply parsed_fields_wf; exact Hfs|exact Hfit]|].
    split; [exact Hl2|]. cbv zeta in *.
    destruct (header_value (r_headers st) CONTENT_LENGTH) as [t|].
    - destruct Hbody as [n [PD [Hlen _]]]. exists n. split; [exact PD|]. split; [exact Hlen|].
      replace n with (N.of_nat (length (r_body st))) by lia. exact Hmax.
    - destruct Hbody as [Hb _]. split; [exact Hb|]. rewrite Hb in Hmax. cbn [length] in Hmax.
      rewrite N.add_0_r in Hmax. exact Hmax.
  Qed.

  Theorem request_reserialise cfg x st c u :
    P cfg req_init x = (st, Complete c) -> r_target st = Some u ->
    uri_ok uri uri_parse uri_show u ->
    refits cfg (value_of uri st u) ->
    exists g st2,
      generate_request uri uri_show cfg (value_of uri st u) = Some g /\
      P cfg req_init g = (st2, Complete (length g)) /\
      value_of uri st2 u = value_of uri st u /\ r_target st2 = Some u.
  Proof.
    intros HP Ht Hu Hfit.
    pose proof (accepted_request_is_wf cfg x st c u HP Ht Hu Hfit) as Hwf.
    destruct (request_roundtrip uri uri_parse uri_show cfg _ Hwf) as [g [st2 [H1 [H2 [H3 [H4 _]]]]]].
    exists g, st2. repeat split; assumption.
  Qed.
End Req.

Lemma status_reason_ok codetext reason code :
  status_line_ok codetext reason code -> find_crlf reason = None /\ utf8_valid reason = true.
Proof.
  intros [PD [_ [Hil Hu]]]. destruct (Numeric.parse_dec_digits _ _ PD) as [[_ Hd] _].
  destruct (status_line_reason codetext reason Hd) as [L U].
  split; [apply L, Hil|rewrite <- U; exact Hu].
Qed.

Lemma all_fit_none hs : lines_fit None hs.
Proof. apply Forall_forall. intros; reflexivity. Qed.

(* An accepted response is a well-formed value at once unless it was chunked; then what is stored
   is the rewritten header list and the payload. *)
Lemma accepted_response_cases x st c :
  resp_parse resp_init x = (st, Complete c) ->
  WfResponse (resp_value_of st) \/
  (s_code st < 1000)%N /\ find_crlf (s_reason st) = None /\ utf8_valid (s_reason st) = true /\
  exists hs0 cb tfields,
    Forall hdr_wf0 hs0 /\ header_value hs0 CONTENT_LENGTH = None /\
    has_header_token hs0 TRANSFER_ENCODING CHUNKED = true /\
    IsChunked cb (s_body st) tfields /\ s_headers st = dechunk_headers hs0 tfields (s_body st).
Proof.
  intros HP.
  destruct (resp_parse_sound x st c HP) as [_ [_ [HI _]]].
  destruct HI as [codetext [fs [wire [_ [Hline [[Hfs _] Hframing]]]]]].
  cbn [w_code w_reason w_headers w_body resp_value_of] in *.
  destruct (status_reason_ok _ _ _ Hline) as [Hr Hu].
  destruct Hline as [_ [Hc _]].
  pose proof (parsed_fields_wf None fs Hfs) as Hwf0.
  remember (map field_header fs) as hs0 eqn:Ehs.
  remember (s_headers st) as hfin eqn:Ehf. remember (s_body st) as bfin eqn:Ebf.
  unfold WfResponse. cbn [w_code w_reason w_headers w_body resp_value_of]. rewrite <- Ehf, <- Ebf.
  destruct Hframing as [t n body HV PD Hlen|cb payload tfields HV HT HC|HV HT].
  - left. repeat split; try assumption; [apply hdr_wf_of_wf0_fit; [exact Hwf0|apply all_fit_none]|].
    rewrite HV. exists n. split; [exact PD|exact Hlen].
  - right. repeat split; try assumption. exists hs0, cb, tfields. repeat split; assumption.
  - left. repeat split; try assumption; [apply hdr_wf_of_wf0_fit; [exact Hwf0|apply all_fit_none]|].
    rewrite HV. split; [reflexivity|exact HT].
Qed.

(* C11 for responses, as Props/C11 states it: the stored headers are those of a de-chunked
   response, or the parsed value is well-formed.  The framing premise is not used: the
   disjunction holds of every accepted response (accepted_response_cases) *)
Theorem accepted_response_is_wf x st c :
  resp_parse resp_init x = (st, Complete c) ->
  header_value (s_headers st) CONTENT_LENGTH <> None \/
  has_header_token (s_headers st) TRANSFER_ENCODING CHUNKED = false ->
  (exists hs0 tf pl, s_headers st = dechunk_headers hs0 tf pl /\ header_value hs0 CONTENT_LENGTH = None
                     /\ has_header_token hs0 TRANSFER_ENCODING CHUNKED = true) \/
  WfResponse (resp_value_of st).
Proof.
  intros HP _.
  destruct (accepted_response_cases x st c HP) as [W|(_ & _ & _ & hs0 & cb & tf & _ & HV & HT & _ & E)].
  - right. exact W.
  - left. exists hs0, tf, (s_body st). repeat split; assumption.
Qed.

(* a well-formed value round-trips (trailing data is not part of the message); that the value
   was parsed is not used *)
Theorem response_reserialise x st c :
  resp_parse resp_init x = (st, Complete c) ->
  WfResponse (resp_value_of st) ->
  exists st2,
    resp_parse resp_init (generate_response (resp_value_of st)) =
      (st2, Complete (length (generate_response (resp_value_of st)))) /\
    resp_value_of st2 = resp_value_of st.
Proof.
  intros _ Hwf. destruct (response_roundtrip _ Hwf) as [st2 [H1 [H2 _]]]. exists st2. split; assumption.
Qed.

Theorem accepted_response_value_wf x st c :
  resp_parse resp_init x = (st, Complete c) ->
  (N.of_nat (length (s_body st)) <= USIZE_MAX)%N ->
  WfResponse (resp_value_of st).
Proof.
  intros HP Hsz.
  destruct (accepted_response_cases x st c HP)
    as [W|(Hc & Hr & Hu & hs0 & cb & tf & Hwf0 & HV & HT & HC & E)]; [exact W|].
  unfold WfResponse. cbn [w_code w_reason w_headers w_body resp_value_of].
  split; [exact Hc|]. split; [exact Hr|]. split; [exact Hu|]. rewrite E. split.
  - apply hdr_wf_of_wf0_fit; [|apply all_fit_none].
    apply dechunk_headers_wf; [exact Hwf0|apply (chunked_trailer_wf _ _ _ HC)].
  - pose proof (dechunk_content_length hs0 tf (s_body st) HV) as D.
    rewrite header_value_hmv, D. cbn [join].
    exists (N.of_nat (length (s_body st))). split; [apply parse_show_dec; exact Hsz|lia].
Qed.

Theorem every_accepted_response_reserialises x st c :
  resp_parse resp_init x = (st, Complete c) ->
  (N.of_nat (length (s_body st)) <= USIZE_MAX)%N ->
  exists st2,
    resp_parse resp_init (generate_response (resp_value_of st)) =
      (st2, Complete (length (generate_response (resp_value_of st)))) /\
    resp_value_of st2 = resp_value_of st.
Proof.
  intros HP Hsz. apply (response_reserialise x st c HP). apply (accepted_response_value_wf x st c HP Hsz).
Qed.
