(* C01Request.v -- instantiating the generic delivery theorem for Request::parse. *)
From Http Require Import Model.Bytes Model.Request Spec.Delivery Spec.RequestGrammar
     Proofs.ReqResume Proofs.FeedGeneric.

Section WithUri.
  Variable uri : Type.
  Variable uri_parse : bytes -> option uri.
  Notation state := (req_state uri).
  Notation P := (req_parse uri uri_parse).

  (* two completed request parses are the same message: same parser value (method,
     target, header list, body, phase, byte count) and same number of bytes consumed *)
  Definition same_request (s1 : state) (t1 : nat) (s2 : state) (t2 : nat) : Prop :=
    s1 = s2 /\ t1 = t2.

  Lemma req_init_ok cfg : tot_ok uri cfg req_init.
  Proof.
    apply tot_ok_iff. unfold within_max. destruct (mm cfg) as [m|]; [apply N.le_0_l|exact I].
  Qed.

  Lemma req_resumable cfg :
    resumable state (P cfg) (tot_ok uri cfg) same_request.
  Proof.
    intros st a b Hinv.
    pose proof (req_parse_spec uri uri_parse cfg st a b Hinv) as HS.
    destruct (P cfg st a) as [st1 [c|c|e]] eqn:E.
    - destruct HS as [Hc HS]. split; [exact Hc|]. exists st1, c. split; [exact HS|split; reflexivity].
    - destruct HS as [Hc HS]. split; [exact Hc|]. split.
      + eapply req_parse_tot_ok. exact E.
      + exact HS.
    - exact HS.
  Qed.

  Theorem request_delivery_independent_from cfg st pending tot ds :
    tot_ok uri cfg st -> ds <> [] ->
    feq state same_request
        (feed state (P cfg) st pending ds tot)
        (feed state (P cfg) st pending [concat ds] tot).
  Proof.
    intros Hok Hne.
    apply (feed_concat state (P cfg) (tot_ok uri cfg) same_request); try assumption.
    - intros s c. split; reflexivity.
    - intros s1 c1 s2 c2 s3 c3 [-> ->] [-> ->]. split; reflexivity.
    - intros k s1 c1 s2 c2 [-> ->]. split; reflexivity.
    - apply req_resumable.
  Qed.

  Theorem request_delivery_independent cfg ds :
    ds <> [] ->
    feq state same_request
        (feed state (P cfg) req_init [] ds 0)
        (feed state (P cfg) req_init [] [concat ds] 0).
  Proof. apply request_delivery_independent_from, req_init_ok. Qed.
End WithUri.
