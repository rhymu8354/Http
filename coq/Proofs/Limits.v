(* Limits.v -- request size limits (C08): a request is accepted only within the request-line
   limit and the maximum; a declared body length counts towards the maximum without wrapping;
   whenever more input is asked for, the bytes presented so far are within the maximum; a run that
   does not trip the request-line limit is unchanged by removing it.  The same for the other two
   limits, and that a size rejection is issued only when its limit is exceeded, is in LimitsNone. *)
From Coq Require Import Lia.
From Http Require Import Model.Bytes Model.Num Model.Headers Model.Request
     Spec.Delivery Spec.RequestGrammar Proofs.ReqResume Proofs.C01Request.

(* below usize::MAX the maximum is compared with the true sum *)
Lemma within_max_some cfg m x :
  mm cfg = Some m -> (m < USIZE_MAX)%N -> (within_max cfg x <-> (x <= m)%N).
Proof. intros Hm Hlt. unfold within_max. rewrite Hm. lia. Qed.

Section WithUri.
  Variable uri : Type.
  Variable uri_parse : bytes -> option uri.
  Notation D := (req_dispatch uri uri_parse).
  Notation P := (req_parse uri uri_parse).
  Notation state := (req_state uri).

  (* an enormous declared length cannot defeat the maximum *)
  Theorem declared_length_counts cfg st buf hs c v n m :
    hdr_parse (hl cfg) (r_headers st) (strip_cr buf) = HComplete hs c ->
    header_value hs CONTENT_LENGTH = Some v -> parse_dec v = Some n ->
    mm cfg = Some m -> (m < USIZE_MAX)%N ->
    (m < r_total st + N.of_nat c + n)%N ->
    snd (req_headers uri cfg st buf) = Reject EMessageTooLong.
  Proof.
    intros HP HV PD Hm Hlt Hbig. unfold req_headers. rewrite HP.
    destruct (count_bytes cfg (r_total st) (N.of_nat c)) as [t|] eqn:C1; [|reflexivity].
    apply count_bytes_some_iff in C1. destruct C1 as [-> _]. rewrite HV, PD.
    assert (C2 : count_bytes cfg (sat_add (r_total st) (N.of_nat c)) n = None).
    { apply count_bytes_none_iff. intros W.
      apply within_sat_add, (within_max_some cfg m _ Hm Hlt) in W.
      apply N.lt_nge in Hbig. exact (Hbig W). }
    rewrite C2. reflexivity.
  Qed.

  (* accepted only if within the request-line limit and the maximum *)
  Theorem accepted_request_line_within_limit cfg s st c :
    P cfg req_init s = (st, Complete c) ->
    exists e, find_crlf s = Some e /\ over_limit e (rl cfg) = false.
  Proof.
    intros H. apply req_parse_complete_dispatch in H. revert H.
    unfold req_dispatch. cbn [r_phase req_init].
    destruct (req_line_view uri uri_parse cfg req_init s) as [ | | | | | |e t meth u E O _ _ _];
      intros Hr; try discriminate Hr. eauto.
  Qed.

  Theorem accepted_within_max cfg s st c m :
    P cfg req_init s = (st, Complete c) -> mm cfg = Some m -> (m < USIZE_MAX)%N ->
    (N.of_nat c <= r_total st)%N /\ (r_total st <= m)%N.
  Proof.
    intros H Hm Hlt. apply req_parse_complete_dispatch in H.
    pose proof (req_dispatch_total uri uri_parse cfg req_init s eq_refl) as T.
    rewrite H in T. destruct T as [Hl Hok]. specialize (Hok (req_init_ok uri cfg)).
    apply tot_ok_iff, (within_max_some cfg m) in Hok; [|assumption..].
    cbn [r_total req_init] in Hl. unfold sat_add in Hl. lia.
  Qed.

  (* bytes consumed so far (plus the part of a declared body still outstanding) are covered
     by the running count *)
  Definition count_covers (tot : nat) (st : state) : Prop :=
    (sat_add 0 (N.of_nat tot + outstanding uri st) <= r_total st)%N.

  (* outside the body phase this is the growth of the count, summed from the start of the
     message; in the body phase the bytes taken come off the outstanding part *)
  Lemma count_covers_step cfg st buf st1 c tot :
    count_covers tot st -> D cfg st buf = (st1, Incomplete c) -> count_covers (tot + c) st1.
  Proof.
    unfold count_covers. intros Ha E. unfold outstanding in Ha.
    destruct (is_body (r_phase st)) eqn:Hb.
    - unfold req_dispatch in E. destruct (r_phase st) as [| |n] eqn:Hph; try discriminate Hb.
      pose proof (req_body_view uri st n buf) as V. rewrite E in V. inversion V as [|Hlt]; subst.
      unfold outstanding. cbn [r_phase r_body r_total add_body]. rewrite Hph, app_length.
      replace (N.of_nat (tot + length buf) + (n - N.of_nat (length (r_body st) + length buf)))%N
        with (N.of_nat tot + (n - N.of_nat (length (r_body st))))%N by lia.
      exact Ha.
    - pose proof (req_dispatch_total uri uri_parse cfg st buf Hb) as T. rewrite E in T.
      destruct T as [Hg _]. rewrite Nat2N.inj_add, <- N.add_assoc, <- sat_add_assoc.
      eapply N.le_trans; [|exact Hg]. apply sat_add_le; [|apply N.le_refl].
      destruct (r_phase st); try discriminate Hb; rewrite N.add_0_r in Ha; exact Ha.
  Qed.

  (* early: the caller never has to buffer more than the maximum *)
  Theorem need_more_within_max cfg ds :
    forall st pending tot st' tot' pending' m,
      count_covers tot st ->
      feed state (P cfg) st pending ds tot = NeedMore st' tot' pending' ->
      ds <> [] -> mm cfg = Some m -> (m < USIZE_MAX)%N ->
      (N.of_nat (tot' + length pending') <= m)%N.
  Proof.
    induction ds as [|d ds IH]; intros st pending tot st' tot' pending' m Ha Hf Hne Hm Hlt;
      [congruence|].
    cbn [feed] in Hf. rewrite req_parse_eq in Hf.
    destruct (D cfg st (pending ++ d)) as [s1 [c|c|e]] eqn:E; try discriminate.
    destruct (presented_ok cfg (r_total s1) (length (pending ++ d) - c)) eqn:Ok; [|discriminate].
    pose proof (count_covers_step cfg st _ s1 c tot Ha E) as Ha1.
    destruct ds as [|d2 ds2];
      [|eapply IH; [exact Ha1|exact Hf|discriminate|exact Hm|exact Hlt]].
    cbn [feed] in Hf. injection Hf as <- <- <-. rewrite skipn_length.
    apply presented_ok_iff, (within_max_some cfg m) in Ok; [|assumption..].
    unfold count_covers, sat_add in Ha1. lia.
  Qed.

  Definition with_rl (cfg : rcfg) (x : option N) : rcfg := {| rl := x; hl := hl cfg; mm := mm cfg |}.
  Definition with_hl (cfg : rcfg) (x : option N) : rcfg := {| rl := rl cfg; hl := x; mm := mm cfg |}.
  Definition with_mm (cfg : rcfg) (x : option N) : rcfg := {| rl := rl cfg; hl := hl cfg; mm := x |}.

  (* if a run does not trip the request-line limit, removing that limit changes nothing *)
  Theorem no_request_line_limit_dispatch cfg st buf :
    snd (D cfg st buf) <> Reject ERequestLineTooLong ->
    D (with_rl cfg None) st buf = D cfg st buf.
  Proof.
    unfold req_dispatch. destruct (r_phase st); try reflexivity.
    unfold req_line. cbn [rl hl mm with_rl].
    destruct (find_crlf buf) as [e|].
    - destruct (over_limit e (rl cfg)); [cbn; congruence|]. reflexivity.
    - destruct (over_limit _ (rl cfg)); [cbn; congruence|]. reflexivity.
  Qed.

  (* with no maximum the count never fails and the test on the bytes presented always passes *)
  Lemma count_bytes_none_max cfg t c : mm cfg = None -> count_bytes cfg t c = Some (sat_add t c).
  Proof. intros H. unfold count_bytes. rewrite H. reflexivity. Qed.

  Lemma presented_ok_none_max cfg t k : mm cfg = None -> presented_ok cfg t k = true.
  Proof. intros H. unfold presented_ok. rewrite H. reflexivity. Qed.
End WithUri.
