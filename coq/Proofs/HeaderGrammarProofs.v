(* HeaderGrammarProofs.v -- MessageHeaders::parse accepts exactly the header-block grammar.
   A buffer with a CRLF is [l ++ CRLF ++ rest] with [l] a line; hdr_step and unfold_hdr are given
   once as equations on that form.  Whatever the loop answers, the buffer is well-formed fields and
   a remainder that the answer describes (hdr_loop_inv); it walks over such fields (hdr_loop_fields).
   A rejection names the category of the first defective element (hdr_parse_reject_iff). *)
From Coq Require Import Lia.
From Http Require Import Model.Bytes Model.Utf8 Model.Headers Spec.ChunkedGrammar Spec.HeaderGrammar
     Spec.Rejections Proofs.BytesLemmas.

Lemma vchar_lt128 b : is_vchar b = true -> (b < 128)%N.
Proof.
  unfold is_vchar, is_graphic, between. intros H.
  apply orb_prop in H as [H|H]; [apply orb_prop in H as [H|H]|].
  - apply N.eqb_eq in H. subst. reflexivity.
  - apply N.eqb_eq in H. subst. reflexivity.
  - apply andb_prop in H as [_ H]. apply N.leb_le in H.
    apply N.le_lt_trans with 126%N; [exact H|reflexivity].
Qed.

Lemma ascii_utf8_valid s : Forall (fun b => (b < 128)%N) s -> utf8_valid s = true.
Proof.
  induction 1 as [|b s Hb _ IH]; [reflexivity|].
  cbn [utf8_valid]. apply N.ltb_lt in Hb. rewrite Hb. exact IH.
Qed.

Lemma vchars_utf8_valid s : forallb is_vchar s = true -> utf8_valid s = true.
Proof.
  intros H. apply ascii_utf8_valid. rewrite forallb_forall in H. apply Forall_forall.
  intros b Hb. apply vchar_lt128. apply H. exact Hb.
Qed.

Lemma graphic_vchar b : is_graphic b = true -> is_vchar b = true.
Proof. intros H. unfold is_vchar. rewrite H. apply orb_true_r. Qed.

Lemma graphic_not_wsp b : is_graphic b = true -> is_wsp b = false.
Proof.
  intros H. unfold is_wsp.
  destruct (N.eqb_spec b SP) as [->|_]; [discriminate H|].
  destruct (N.eqb_spec b HT) as [->|_]; [discriminate H|reflexivity].
Qed.

Lemma vchars_is_line s : forallb is_vchar s = true -> is_line s.
Proof. exact (vchars_find_crlf s []). Qed.

Lemma starts_field_line l rest :
  is_line l -> utf8_valid l = true -> starts_wsp l = false -> starts_field (l ++ CRLF ++ rest).
Proof.
  intros Hl U W. exists (length l). rewrite firstn_app_exact.
  split; [apply is_line_find; exact Hl|]. split; [exact U|]. destruct l; [exact I|exact W].
Qed.

Lemma starts_field_app r u : starts_field r -> starts_field (r ++ u).
Proof.
  intros [lt [E H]]. exists lt. pose proof (find_crlf_bound _ _ E).
  rewrite firstn_app_le by lia. split; [apply find_crlf_app; exact E|exact H].
Qed.

Lemma conts_bytes_cons c cs : conts_bytes (c :: cs) = c ++ CRLF ++ conts_bytes cs.
Proof. unfold conts_bytes. cbn [flat_map]. rewrite <- app_assoc. reflexivity. Qed.

Lemma cont_ok_iff l : cont_ok l <-> starts_wsp l = true /\ forallb is_vchar l = true.
Proof. destruct l; [split; [contradiction|intros [H _]; discriminate H]|reflexivity]. Qed.

Lemma field_bytes_app f x :
  field_bytes f ++ x = first_line f ++ CRLF ++ conts_bytes (f_conts f) ++ x.
Proof. unfold field_bytes. rewrite <- !app_assoc. reflexivity. Qed.

Lemma field_bytes_pos f : 0 < length (field_bytes f).
Proof. unfold field_bytes. rewrite line_length. lia. Qed.

Lemma first_line_vchars f :
  name_ok (f_name f) -> forallb is_vchar (f_seg0 f) = true -> forallb is_vchar (first_line f) = true.
Proof.
  intros [Hn _] Hv. unfold first_line.
  rewrite !forallb_app, Hv, (forallb_imp _ _ _ graphic_vchar Hn). reflexivity.
Qed.

Lemma field_bytes_starts lim f rem : field_ok lim f -> starts_field (field_bytes f ++ rem).
Proof.
  intros [Hn [Hv _]]. pose proof (first_line_vchars f Hn Hv) as Hfl.
  rewrite field_bytes_app.
  apply starts_field_line; [apply vchars_is_line|apply vchars_utf8_valid|]; try exact Hfl.
  unfold first_line. destruct Hn as [Hg _]. destruct (f_name f) as [|b n]; [reflexivity|].
  cbn [forallb] in Hg. apply andb_prop in Hg as [Hb _]. apply graphic_not_wsp. exact Hb.
Qed.

Lemma unfold_step f s v c :
  unfold_hdr (S f) s v c =
  match find_crlf s with
  | None => UMore
  | Some lt =>
    let line := firstn lt s in
    if negb (utf8_valid line) then UErr HNotText else
    match line with
    | b :: _ =>
      if is_wsp b then
        if negb (forallb is_vchar line) then UErr HBadValue else
        unfold_hdr f (skipn (lt + 2) s) (v ++ [SP] ++ trim line) (c + (lt + 2))
      else UOk v c
    | [] => UOk v c
    end
  end.
Proof. reflexivity. Qed.

Lemma unfold_none f s v c : find_crlf s = None -> unfold_hdr f s v c = UMore.
Proof. intros E. destruct f; [reflexivity|]. rewrite unfold_step, E. reflexivity. Qed.

Lemma unfold_line f l rest v c :
  is_line l ->
  unfold_hdr (S f) (l ++ CRLF ++ rest) v c =
  if negb (utf8_valid l) then UErr HNotText else
  if starts_wsp l then
    if negb (forallb is_vchar l) then UErr HBadValue
    else unfold_hdr f rest (v ++ [SP] ++ trim l) (c + (length l + 2))
  else UOk v c.
Proof.
  intros Hl. rewrite unfold_step, (is_line_find l rest Hl), firstn_app_exact, skipn_line.
  destruct l; reflexivity.
Qed.

Lemma unfold_fuel f1 f2 s v c :
  length s < f1 -> length s < f2 -> unfold_hdr f1 s v c = unfold_hdr f2 s v c.
Proof.
  revert f2 s v c. induction f1 as [|f1 IH]; intros f2 s v c H1 H2; [lia|].
  destruct f2 as [|f2]; [lia|].
  destruct (find_crlf s) as [lt|] eqn:E; [|rewrite !unfold_none by exact E; reflexivity].
  apply find_crlf_line in E as [l [rest [-> Hl]]]. rewrite !unfold_line by exact Hl.
  destruct (negb (utf8_valid l)); [reflexivity|]. destruct (starts_wsp l); [|reflexivity].
  destruct (negb (forallb is_vchar l)); [reflexivity|].
  rewrite line_length in H1, H2. apply IH; lia.
Qed.

Lemma unfold_stop f r v c : starts_field r -> 0 < f -> unfold_hdr f r v c = UOk v c.
Proof.
  intros [lt [E [U W]]] Hf. destruct f as [|f]; [lia|]. rewrite unfold_step, E. cbv zeta. rewrite U.
  destruct (firstn lt r); [reflexivity|]. rewrite W. reflexivity.
Qed.

Lemma unfold_conts cs : forall r v c f,
  Forall cont_ok cs -> length (conts_bytes cs ++ r) < f ->
  unfold_hdr f (conts_bytes cs ++ r) v c =
  unfold_hdr f r (unfolded v cs) (c + length (conts_bytes cs)).
Proof.
  induction cs as [|l cs IH]; intros r v c f Hok Hf.
  - cbn. rewrite Nat.add_0_r. reflexivity.
  - inversion Hok as [|? ? Hl Hcs]; subst. apply cont_ok_iff in Hl as [Hw Hv].
    rewrite conts_bytes_cons, <- !app_assoc in *. rewrite line_length in Hf.
    destruct f as [|f]; [lia|].
    rewrite (unfold_line f l _ v c (vchars_is_line l Hv)), (vchars_utf8_valid l Hv), Hw, Hv.
    cbn [negb]. rewrite (IH _ _ _ f Hcs) by lia.
    rewrite app_length in Hf. rewrite (unfold_fuel f (S f)) by lia.
    cbn [unfolded fold_left]. apply f_equal. clear. rewrite line_length. lia.
Qed.

(* the decomposition with no continuation line, for the answers that consumed none *)
Lemma decomp_no_conts s (P : list bytes -> bytes -> Prop) :
  P [] s -> exists cs r, Forall cont_ok cs /\ s = conts_bytes cs ++ r /\ P cs r.
Proof. intros H. exists [], s. repeat split; auto. Qed.

Lemma unfold_inv f : forall s v c,
  exists cs r, Forall cont_ok cs /\ s = conts_bytes cs ++ r /\
    match unfold_hdr f s v c with
    | UMore => True
    | UErr e => exists l rest, r = l ++ CRLF ++ rest /\ is_line l /\ cont_defect l e
    | UOk v' c' => starts_field r /\ v' = unfolded v cs /\ c' = c + length (conts_bytes cs)
    end.
Proof.
  induction f as [|f IH]; intros s v c.
  { apply decomp_no_conts. exact I. }
  destruct (find_crlf s) as [lt|] eqn:E.
  2:{ apply decomp_no_conts. rewrite (unfold_none _ _ _ _ E). exact I. }
  apply find_crlf_line in E as [l [rest [-> Hl]]]. rewrite (unfold_line f l rest v c Hl).
  destruct (utf8_valid l) eqn:U; cbn [negb].
  2:{ apply decomp_no_conts. exists l, rest. split; [reflexivity|]. split; [exact Hl|].
      apply CD_text. exact U. }
  destruct (starts_wsp l) eqn:W.
  2:{ apply decomp_no_conts. split; [apply starts_field_line; assumption|].
      split; [reflexivity|symmetry; apply Nat.add_0_r]. }
  destruct (forallb is_vchar l) eqn:V; cbn [negb].
  2:{ apply decomp_no_conts. exists l, rest. split; [reflexivity|]. split; [exact Hl|].
      apply CD_value; assumption. }
  destruct (IH rest (v ++ [SP] ++ trim l) (c + (length l + 2))) as [cs [r [Hcs [-> Hu]]]].
  exists (l :: cs), r.
  split; [constructor; [apply cont_ok_iff; split; assumption|exact Hcs]|].
  split; [rewrite conts_bytes_cons, <- !app_assoc; reflexivity|].
  destruct (unfold_hdr f _ _ _) as [|e|v' c']; [exact I|exact Hu|].
  destruct Hu as [Hst [-> ->]]. split; [exact Hst|]. split; [reflexivity|].
  rewrite conts_bytes_cons, line_length. lia.
Qed.

Lemma hdr_step_unterminated lim s :
  find_crlf s = None ->
  hdr_step lim s =
  match s with
  | [] => SMore
  | _ => if over_limit (length s + 2) lim then SErr HTooLong else SMore
  end.
Proof. intros E. unfold hdr_step. rewrite E. destruct s; reflexivity. Qed.

Lemma hdr_step_line lim l rest :
  is_line l ->
  hdr_step lim (l ++ CRLF ++ rest) =
  if over_limit (length l + 2) lim then SErr HTooLong else
  match l with
  | [] => SDone 2
  | _ =>
    if negb (utf8_valid l) then SErr HNotText else
    match find_byte COLON l with
    | None => SErr HNoColon
    | Some k =>
      if negb (forallb is_graphic (firstn k l)) then SErr HBadName else
      if negb (forallb is_vchar (skipn (S k) l)) then SErr HBadValue else
      match unfold_hdr (length (l ++ CRLF ++ rest)) rest (skipn (S k) l) 0 with
      | UMore => SMore
      | UErr e => SErr e
      | UOk v c2 => SField (firstn k l, trim v) (length l + 2 + c2)
      end
    end
  end.
Proof.
  intros Hl. unfold hdr_step. rewrite (is_line_find l rest Hl), firstn_app_exact, skipn_line.
  destruct l; reflexivity.
Qed.

Lemma hdr_step_empty_line lim rest :
  hdr_step lim (CRLF ++ rest) = if over_limit 2 lim then SErr HTooLong else SDone 2.
Proof. exact (hdr_step_line lim [] rest eq_refl). Qed.

Lemma hdr_step_colon lim l n v0 rest :
  l = n ++ COLON :: v0 -> find_byte COLON n = None -> is_line l ->
  hdr_step lim (l ++ CRLF ++ rest) =
  if over_limit (length l + 2) lim then SErr HTooLong else
  if negb (utf8_valid l) then SErr HNotText else
  if negb (forallb is_graphic n) then SErr HBadName else
  if negb (forallb is_vchar v0) then SErr HBadValue else
  match unfold_hdr (length (l ++ CRLF ++ rest)) rest v0 0 with
  | UMore => SMore
  | UErr e => SErr e
  | UOk v c2 => SField (n, trim v) (length l + 2 + c2)
  end.
Proof.
  intros -> K Hl.
  rewrite (hdr_step_line lim _ rest Hl), (find_byte_app_none COLON n v0 K), firstn_app_exact,
    skipn_app_cons.
  destruct n; reflexivity.
Qed.

Lemma hdr_step_field_ok lim fd x :
  field_ok lim fd ->
  hdr_step lim (field_bytes fd ++ x) =
  match unfold_hdr (S (length x)) x (unfolded (f_seg0 fd) (f_conts fd))
                   (length (conts_bytes (f_conts fd))) with
  | UMore => SMore
  | UErr e => SErr e
  | UOk v c2 => SField (f_name fd, trim v) (length (first_line fd) + 2 + c2)
  end.
Proof.
  intros [[Hg Hnc] [Hv [Hc Hl]]]. pose proof (first_line_vchars fd (conj Hg Hnc) Hv) as Hfl.
  rewrite field_bytes_app.
  rewrite (hdr_step_colon lim (first_line fd) (f_name fd) (f_seg0 fd) _ eq_refl Hnc
             (vchars_is_line _ Hfl)).
  rewrite Hl, (vchars_utf8_valid _ Hfl), Hg, Hv. cbn [negb].
  rewrite line_length, app_length.
  rewrite (unfold_conts _ _ _ _ _ Hc) by (rewrite app_length; lia).
  rewrite (unfold_fuel _ (S (length x))) by lia.
  reflexivity.
Qed.

Lemma hdr_step_field lim fd rem :
  field_ok lim fd -> starts_field rem ->
  hdr_step lim (field_bytes fd ++ rem) = SField (field_header fd) (length (field_bytes fd)).
Proof.
  intros Hfd Hrem. rewrite (hdr_step_field_ok lim fd rem Hfd), (unfold_stop _ _ _ _ Hrem) by lia.
  unfold field_header, field_bytes. rewrite !app_length, Nat.add_assoc. reflexivity.
Qed.

Lemma hdr_step_inv lim s :
  match hdr_step lim s with
  | SMore => True
  | SErr e => field_defect lim s e
  | SDone c => c = 2 /\ over_limit 2 lim = false /\ exists rest, s = CRLF ++ rest
  | SField h c =>
      exists fd rem, field_ok lim fd /\ s = field_bytes fd ++ rem /\ starts_field rem /\
                     h = field_header fd /\ c = length (field_bytes fd)
  end.
Proof.
  destruct (find_crlf s) as [lt|] eqn:E.
  2:{ rewrite (hdr_step_unterminated lim s E). destruct s as [|a s']; [exact I|].
      destruct (over_limit _ lim) eqn:O; [|exact I].
      apply FD_unterminated; [discriminate|exact E|exact O]. }
  apply find_crlf_line in E as [l [rest [-> Hl]]]. rewrite (hdr_step_line lim l rest Hl).
  destruct (over_limit (length l + 2) lim) eqn:O.
  { apply FD_line; [exact Hl|]. apply LD_long. exact O. }
  destruct l as [|a l'].
  { split; [reflexivity|]. split; [exact O|]. exists rest. reflexivity. }
  destruct (utf8_valid (a :: l')) eqn:U; cbn [negb].
  2:{ apply FD_line; [exact Hl|]. apply LD_text; assumption. }
  destruct (find_byte COLON (a :: l')) as [k|] eqn:K.
  2:{ apply FD_line; [exact Hl|]. apply LD_colon; [exact O|exact U|discriminate|exact K]. }
  apply find_byte_word in K as [n [v0 [Hs [Hnc ->]]]].
  rewrite Hs in *. rewrite firstn_app_exact, skipn_app_cons.
  destruct (forallb is_graphic n) eqn:G; cbn [negb].
  2:{ apply FD_line; [exact Hl|]. apply LD_name; assumption. }
  destruct (forallb is_vchar v0) eqn:V; cbn [negb].
  2:{ apply FD_line; [exact Hl|]. apply LD_value; [| |split|]; assumption. }
  set (F := length _).
  destruct (unfold_inv F rest v0 0) as [cs [r [Hcs [-> Hu]]]].
  set (fd := {| f_name := n; f_seg0 := v0; f_conts := cs |}).
  assert (Hfd : field_ok lim fd) by (repeat split; assumption).
  change ((n ++ COLON :: v0) ++ CRLF ++ conts_bytes cs ++ r)
    with (first_line fd ++ CRLF ++ conts_bytes (f_conts fd) ++ r).
  rewrite <- field_bytes_app.
  destruct (unfold_hdr F _ v0 0) as [|e|v c2].
  - exact I.
  - destruct Hu as [l1 [rest1 [-> [Hl1 Hd]]]]. apply FD_cont; assumption.
  - destruct Hu as [Hst [-> ->]]. exists fd, r.
    repeat split; try assumption.
    unfold field_bytes. rewrite (app_length (first_line fd)), (app_length CRLF).
    symmetry. apply Nat.add_assoc.
Qed.

Lemma hdr_loop_step f lim s acc off :
  hdr_loop (S f) lim s acc off =
  match hdr_step lim s with
  | SMore => HIncomplete acc off
  | SErr e => HError e
  | SDone c => HComplete acc (off + c)
  | SField h c => hdr_loop f lim (skipn c s) (acc ++ [h]) (off + c)
  end.
Proof. reflexivity. Qed.

Lemma hdr_loop_fuel f1 f2 lim s acc off :
  length s < f1 -> length s < f2 -> hdr_loop f1 lim s acc off = hdr_loop f2 lim s acc off.
Proof.
  revert f2 s acc off. induction f1 as [|f1 IH]; intros f2 s acc off H1 H2; [lia|].
  destruct f2 as [|f2]; [lia|]. rewrite !hdr_loop_step.
  pose proof (hdr_step_inv lim s) as I. destruct (hdr_step lim s) as [|e|c|h c]; try reflexivity.
  destruct I as [fd [rem [_ [-> [_ [_ ->]]]]]]. pose proof (field_bytes_pos fd).
  rewrite skipn_app_exact. rewrite app_length in H1, H2. apply IH; lia.
Qed.

(* the disjunction is that of [block_defect] *)
Lemma hdr_loop_fields lim fs : forall r f acc off,
  Forall (field_ok lim) fs -> (fs = [] \/ starts_field r) ->
  length (flat_map field_bytes fs ++ r) < f ->
  hdr_loop f lim (flat_map field_bytes fs ++ r) acc off =
  hdr_loop f lim r (acc ++ map field_header fs) (off + length (flat_map field_bytes fs)).
Proof.
  induction fs as [|fd fs IH]; intros r f acc off Hok Hst Hf.
  - cbn. rewrite app_nil_r, Nat.add_0_r. reflexivity.
  - inversion Hok as [|? ? Hfd Hfs]; subst. destruct Hst as [Hst|Hst]; [discriminate|].
    cbn [flat_map map] in *. rewrite <- app_assoc in *. rewrite app_length in *.
    pose proof (field_bytes_pos fd). destruct f as [|f]; [lia|]. rewrite hdr_loop_step.
    rewrite (hdr_step_field lim fd _ Hfd), skipn_app_exact.
    2:{ destruct Hfs as [|f2 fs2 Hf2 _]; [exact Hst|].
        cbn [flat_map]. rewrite <- app_assoc. apply (field_bytes_starts lim). exact Hf2. }
    rewrite (IH r f _ _ Hfs (or_intror Hst)) by lia.
    rewrite (hdr_loop_fuel f (S f)) by (rewrite app_length in Hf; lia).
    rewrite <- app_assoc, Nat.add_assoc. reflexivity.
Qed.

(* the decomposition with no field, for the answers that consumed none *)
Lemma decomp_no_fields lim s (P : list field -> bytes -> Prop) :
  P [] s ->
  exists fs r, Forall (field_ok lim) fs /\ s = flat_map field_bytes fs ++ r /\
               (fs = [] \/ starts_field r) /\ P fs r.
Proof. intros H. exists [], s. repeat split; auto. Qed.

Lemma hdr_loop_inv f lim : forall s acc off,
  exists fs r, Forall (field_ok lim) fs /\ s = flat_map field_bytes fs ++ r /\
               (fs = [] \/ starts_field r) /\
    match hdr_loop f lim s acc off with
    | HComplete hs c =>
        hs = acc ++ map field_header fs /\ c = off + length (header_block fs) /\
        over_limit 2 lim = false /\ exists rest, r = CRLF ++ rest
    | HIncomplete hs c =>
        hs = acc ++ map field_header fs /\ c = off + length (flat_map field_bytes fs)
    | HError e => field_defect lim r e
    end.
Proof.
  induction f as [|f IH]; intros s acc off.
  { apply decomp_no_fields. split; [symmetry; apply app_nil_r|symmetry; apply Nat.add_0_r]. }
  rewrite hdr_loop_step. pose proof (hdr_step_inv lim s) as I.
  destruct (hdr_step lim s) as [|e|c|h c].
  - apply decomp_no_fields. split; [symmetry; apply app_nil_r|symmetry; apply Nat.add_0_r].
  - apply decomp_no_fields. exact I.
  - destruct I as [-> I]. apply decomp_no_fields. split; [symmetry; apply app_nil_r|]. split; [reflexivity|exact I].
  - destruct I as [fd [rem [Hfd [-> [Hst [-> ->]]]]]]. rewrite skipn_app_exact.
    destruct (IH rem (acc ++ [field_header fd]) (off + length (field_bytes fd)))
      as [fs [r [Hfs [-> [Hside I]]]]].
    exists (fd :: fs), r. split; [constructor; assumption|].
    split; [cbn [flat_map]; rewrite <- app_assoc; reflexivity|].
    split; [right; destruct Hside as [->|Hr]; [exact Hst|exact Hr]|].
    unfold header_block in *. cbn [flat_map map]. rewrite <- !app_assoc in *.
    rewrite !(app_length (field_bytes fd)), !Nat.add_assoc. exact I.
Qed.

Theorem hdr_parse_complete lim hs0 fs rest :
  block_ok lim fs ->
  hdr_parse lim hs0 (header_block fs ++ rest) =
  HComplete (hs0 ++ map field_header fs) (length (header_block fs)).
Proof.
  intros [Hok O]. unfold hdr_parse, header_block. rewrite <- app_assoc.
  assert (Hst : starts_field (CRLF ++ rest)) by (apply (starts_field_line [] rest); reflexivity).
  rewrite (hdr_loop_fields lim fs _ _ _ _ Hok (or_intror Hst)) by lia.
  rewrite hdr_loop_step. rewrite hdr_step_empty_line, O, app_length. reflexivity.
Qed.

Lemma hdr_parse_complete_inv lim hs0 s hs c :
  hdr_parse lim hs0 s = HComplete hs c ->
  exists fs rest, block_ok lim fs /\ s = header_block fs ++ rest /\
                  hs = hs0 ++ map field_header fs /\ c = length (header_block fs).
Proof.
  unfold hdr_parse. intros H.
  destruct (hdr_loop_inv (S (length s)) lim s hs0 0) as [fs [r [Hok [-> [_ I]]]]].
  rewrite H in I. destruct I as [-> [-> [O [rest ->]]]].
  exists fs, rest. unfold header_block. rewrite <- app_assoc. repeat split; auto.
Qed.

Theorem hdr_parse_sound lim hs0 s hs c :
  hdr_parse lim hs0 s = HComplete hs c ->
  exists fs, block_ok lim fs /\ firstn c s = header_block fs /\ hs = hs0 ++ map field_header fs.
Proof.
  intros H. destruct (hdr_parse_complete_inv _ _ _ _ _ H) as [fs [rest [Hok [-> [-> ->]]]]].
  exists fs. rewrite firstn_app_exact. destruct Hok. repeat split; auto.
Qed.

(* the parser only ever appends to the collection *)
Lemma hdr_parse_appends lim hs s :
  match hdr_parse lim hs s with
  | HComplete hs' _ | HIncomplete hs' _ => exists more, hs' = hs ++ more
  | HError _ => True
  end.
Proof.
  unfold hdr_parse. destruct (hdr_loop_inv (S (length s)) lim s hs 0) as (fs & r & _ & _ & _ & I).
  destruct (hdr_loop _ _ _ _ _); [eexists; exact (proj1 I)..|exact Logic.I].
Qed.

(* two decompositions of one block give the same headers (name and unfolded value each); the
   fields themselves, with their continuation lines, are not claimed equal *)
Theorem header_block_functional lim fs fs' :
  block_ok lim fs -> block_ok lim fs' -> header_block fs = header_block fs' ->
  map field_header fs = map field_header fs'.
Proof.
  intros H1 H2 He.
  pose proof (hdr_parse_complete lim [] fs [] H1) as E1.
  pose proof (hdr_parse_complete lim [] fs' [] H2) as E2.
  rewrite !app_nil_r in *. rewrite He in E1. rewrite E1 in E2. inversion E2. reflexivity.
Qed.

Lemma line_defect_step lim l rest e :
  is_line l -> line_defect lim l e -> hdr_step lim (l ++ CRLF ++ rest) = SErr e.
Proof.
  intros Hl Hd. destruct Hd as [l O|l O U|l O U Hne K|n v O U K G|n v O U [G K] V].
  - rewrite (hdr_step_line lim l rest Hl), O. reflexivity.
  - rewrite (hdr_step_line lim l rest Hl), O. destruct l; [discriminate|]. rewrite U. reflexivity.
  - rewrite (hdr_step_line lim l rest Hl), O. destruct l; [congruence|]. rewrite U, K. reflexivity.
  - rewrite (hdr_step_colon lim _ n v rest eq_refl K Hl), O, U, G. reflexivity.
  - rewrite (hdr_step_colon lim _ n v rest eq_refl K Hl), O, U, G, V. reflexivity.
Qed.

Lemma cont_defect_unfold f l rest e v c :
  is_line l -> cont_defect l e -> unfold_hdr (S f) (l ++ CRLF ++ rest) v c = UErr e.
Proof.
  intros Hl Hd. rewrite (unfold_line f l rest v c Hl). destruct Hd as [l U|l U W V].
  - rewrite U. reflexivity.
  - rewrite U, W, V. reflexivity.
Qed.

Lemma field_defect_step lim r e : field_defect lim r e -> hdr_step lim r = SErr e.
Proof.
  intros H. destruct H as [l rest e Hl Hd|f l rest e Hf Hl Hd|s Hne E O].
  - apply line_defect_step; assumption.
  - rewrite (hdr_step_field_ok lim f _ Hf), (cont_defect_unfold _ l rest e _ _ Hl Hd). reflexivity.
  - rewrite (hdr_step_unterminated lim s E). destruct s; [congruence|]. rewrite O. reflexivity.
Qed.

Theorem block_defect_rejected lim hs0 s e :
  block_defect lim s e -> hdr_parse lim hs0 s = HError e.
Proof.
  intros [fs [r [Hok [-> [Hd Hst]]]]]. unfold hdr_parse.
  rewrite (hdr_loop_fields lim fs r _ _ _ Hok Hst) by apply Nat.lt_succ_diag_r.
  cbn [hdr_loop]. rewrite (field_defect_step lim r e Hd). reflexivity.
Qed.

Theorem hdr_parse_reject_iff lim hs0 s e :
  hdr_parse lim hs0 s = HError e <-> block_defect lim s e.
Proof.
  split; [|apply block_defect_rejected].
  unfold hdr_parse. intros H.
  destruct (hdr_loop_inv (S (length s)) lim s hs0 0) as [fs [r [Hok [Hs [Hst Hd]]]]].
  rewrite H in Hd. exists fs, r. repeat split; assumption.
Qed.
