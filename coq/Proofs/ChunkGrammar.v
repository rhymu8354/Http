(* ChunkGrammar.v -- the chunk decoder accepts exactly the chunked-body grammar (C05).
   The decoder's answer in each state is given as an equation on the shape of the buffer (a line,
   enough data, CRLF); the grammar is followed forwards with these, and the decoder's Complete and
   Reject answers are explained by one walk over the buffer, chunk by chunk. *)
From Coq Require Import Lia.
From Http Require Import Model.Bytes Model.Utf8 Model.Num Model.Headers Model.Request Model.Chunked
     Spec.ChunkedGrammar Spec.Rejections Proofs.BytesLemmas
     Proofs.HeaderGrammarProofs Proofs.HeadersResume Proofs.ChunkResume.

Lemma size_field_eq line : size_field line = match find_byte SEMI line with Some d => firstn d line | None => line end.
Proof. reflexivity. Qed.

Lemma parse_chunk_size_field line : parse_chunk_size line = parse_hex (size_field line).
Proof. unfold parse_chunk_size, size_field. destruct (find_byte SEMI line); reflexivity. Qed.

Definition awaiting_size (b0 : bytes) : chunk_state :=
  {| c_phase := CSize; c_buffer := b0; c_trailer := [] |}.

Lemma decode_size_line st l rest :
  is_line l ->
  decode_size st (l ++ CRLF ++ rest) =
  if utf8_valid l then
    match parse_hex (size_field l) with
    | Some n => CPart (set_cphase st (if N.eqb n 0 then CTrailer else CData n)) (length l + 2)
    | None => CErr EInvalidChunkSize
    end
  else CErr EChunkSizeLineNotValidText.
Proof.
  intros Hl. unfold decode_size. rewrite (is_line_find _ rest Hl). cbv zeta.
  rewrite firstn_app_exact, parse_chunk_size_field. destruct (utf8_valid l); reflexivity.
Qed.

Lemma chunk_decode_no_line b0 s :
  find_crlf s = None -> chunk_decode (awaiting_size b0) s = (awaiting_size b0, Incomplete 0).
Proof.
  intros E. rewrite chunk_decode_step by exact I.
  unfold chunk_step, decode_size. cbn [awaiting_size c_phase]. rewrite E. reflexivity.
Qed.

Lemma chunk_decode_size_line b0 l rest :
  is_line l ->
  chunk_decode (awaiting_size b0) (l ++ CRLF ++ rest) =
  if utf8_valid l then
    match parse_hex (size_field l) with
    | Some n =>
      cshift (length l + 2)
        (chunk_decode {| c_phase := if N.eqb n 0 then CTrailer else CData n;
                         c_buffer := b0; c_trailer := [] |} rest)
    | None => (awaiting_size b0, Reject EInvalidChunkSize)
    end
  else (awaiting_size b0, Reject EChunkSizeLineNotValidText).
Proof.
  intros Hl. rewrite chunk_decode_step by exact I.
  unfold chunk_step. cbn [awaiting_size c_phase]. rewrite (decode_size_line _ l rest Hl).
  destruct (utf8_valid l); [|reflexivity].
  destruct (parse_hex (size_field l)); [|reflexivity]. rewrite skipn_line. reflexivity.
Qed.

Lemma chunk_decode_data b0 n data rest :
  n <> 0%N -> length data = N.to_nat n ->
  chunk_decode {| c_phase := CData n; c_buffer := b0; c_trailer := [] |} (data ++ rest) =
  cshift (length data)
    (chunk_decode {| c_phase := CTerminator; c_buffer := b0 ++ data; c_trailer := [] |} rest).
Proof.
  intros Hn Hd. rewrite chunk_decode_step by exact Hn.
  unfold chunk_step. cbn [c_phase]. rewrite (decode_data_whole _ n data rest Hd).
  rewrite skipn_app_exact. reflexivity.
Qed.

Lemma chunk_decode_data_short b0 n buf :
  (N.of_nat (length buf) < n)%N ->
  exists st, chunk_decode {| c_phase := CData n; c_buffer := b0; c_trailer := [] |} buf =
             (st, Incomplete (length buf)).
Proof.
  intros Hlt. rewrite chunk_decode_step by (cbn; lia).
  unfold chunk_step. cbn [c_phase]. rewrite (decode_data_short _ n buf Hlt). eauto.
Qed.

Lemma chunk_decode_terminator b0 buf :
  let st := {| c_phase := CTerminator; c_buffer := b0; c_trailer := [] |} in
  chunk_decode st buf =
  match buf with
  | [] => (st, Incomplete 0)
  | [a] => (st, if N.eqb a CR then Incomplete 0 else Reject EInvalidChunkTerminator)
  | a :: b :: rest =>
    if (N.eqb a CR && N.eqb b LF)%bool then cshift 2 (chunk_decode (awaiting_size b0) rest)
    else (st, Reject EInvalidChunkTerminator)
  end.
Proof.
  intros st. rewrite chunk_decode_step by exact I.
  unfold chunk_step, decode_terminator. cbn [st c_phase].
  destruct buf as [|a [|b rest]]; [reflexivity|destruct (N.eqb a CR); reflexivity|].
  destruct (N.eqb a CR && N.eqb b LF)%bool; reflexivity.
Qed.

Lemma chunk_decode_trailer b0 buf :
  let st := {| c_phase := CTrailer; c_buffer := b0; c_trailer := [] |} in
  chunk_decode st buf =
  match hdr_parse None [] buf with
  | HError e => (st, Reject (ETrailer e))
  | HComplete hs c => ({| c_phase := CTrailer; c_buffer := b0; c_trailer := hs |}, Complete c)
  | HIncomplete hs c => ({| c_phase := CTrailer; c_buffer := b0; c_trailer := hs |}, Incomplete c)
  end.
Proof.
  intros st. rewrite chunk_decode_step by exact I.
  unfold chunk_step, decode_trailer. cbn [st c_phase c_buffer c_trailer].
  destruct (hdr_parse None [] buf); reflexivity.
Qed.

Lemma chunk_decode_chunk_data b0 l n data tail :
  size_line l n -> n <> 0%N -> length data = N.to_nat n ->
  chunk_decode (awaiting_size b0) (l ++ CRLF ++ data ++ tail) =
  cshift (length l + 2 + length data)
    (chunk_decode {| c_phase := CTerminator; c_buffer := b0 ++ data; c_trailer := [] |} tail).
Proof.
  intros (Hl & Hu & Hp) Hn Hd.
  rewrite (chunk_decode_size_line b0 l _ Hl), Hu, Hp.
  destruct (N.eqb_spec n 0) as [Z|_]; [contradiction|].
  rewrite (chunk_decode_data b0 n data _ Hn Hd), cshift_cshift. reflexivity.
Qed.

Lemma chunk_decode_chunk b0 l n data rest :
  size_line l n -> n <> 0%N -> length data = N.to_nat n ->
  chunk_decode (awaiting_size b0) (l ++ CRLF ++ data ++ CRLF ++ rest) =
  cshift (length l + 2 + length data + 2) (chunk_decode (awaiting_size (b0 ++ data)) rest).
Proof.
  intros Hs Hn Hd.
  rewrite (chunk_decode_chunk_data b0 l n data _ Hs Hn Hd), chunk_decode_terminator.
  cbn [app CRLF]. rewrite !N.eqb_refl. cbn [andb]. apply cshift_cshift.
Qed.

(* completeness: every well-formed chunked body is decoded to its payload and trailers,
   stopping exactly at its end *)
Lemma chunk_decode_complete_from c p t :
  IsChunked c p t ->
  forall rest b0,
    chunk_decode (awaiting_size b0) (c ++ rest) =
    ({| c_phase := CTrailer; c_buffer := b0 ++ p; c_trailer := t |}, Complete (length c)).
Proof.
  induction 1 as [line block fields Hs Ht|line n data rest0 payload fields Hs Hn Hd Hc IH];
    intros rest b0; rewrite <- !app_assoc.
  - destruct Hs as (Hl & Hu & Hp).
    rewrite (chunk_decode_size_line b0 line _ Hl), Hu, Hp, chunk_decode_trailer.
    destruct (hdr_parse_complete_app None [] block rest _ _ Ht) as [_ ->].
    cbn [N.eqb cshift]. rewrite app_nil_r, !app_length, Nat.add_assoc. reflexivity.
  - rewrite (chunk_decode_chunk b0 line n data _ Hs Hn Hd), IH.
    cbn [cshift]. rewrite <- app_assoc, !app_length, !Nat.add_assoc. reflexivity.
Qed.

Theorem chunk_decode_complete c p t rest :
  IsChunked c p t ->
  chunk_decode chunk_init (c ++ rest) =
  ({| c_phase := CTrailer; c_buffer := p; c_trailer := t |}, Complete (length c)).
Proof. intros H. exact (chunk_decode_complete_from c p t H rest []). Qed.

(* What a Complete and a Reject answer mean: the consumed prefix is a well-formed chunked body
   made of the declared data ranges only; the buffer has a first offending element of the
   category named.  One walk along the buffer, chunk by chunk. *)
Lemma chunk_decode_answers s : forall b0,
  match chunk_decode (awaiting_size b0) s with
  | (st, Complete c) => exists p, IsChunked (firstn c s) p (c_trailer st) /\ c_buffer st = b0 ++ p
  | (_, Incomplete _) => True
  | (_, Reject e) => chunked_defect s e
  end.
Proof.
  induction s as [s IH] using (induction_ltof1 _ (@length N)). unfold ltof in IH. intros b0.
  destruct (line_cases s) as [E|(l & rest & -> & Hl)].
  { rewrite (chunk_decode_no_line b0 s E). exact I. }
  rewrite (chunk_decode_size_line b0 l rest Hl).
  destruct (utf8_valid l) eqn:Hu; [|apply KD_size_text; assumption].
  destruct (parse_hex (size_field l)) as [m|] eqn:Hp; [|apply KD_size; assumption].
  assert (Hs : size_line l m) by (repeat split; assumption).
  destruct (N.eqb_spec m 0) as [->|Hm].
  - rewrite chunk_decode_trailer.
    destruct (hdr_parse None [] rest) as [hs k|hs k|e] eqn:HP; cbn [cshift]; [|exact I|].
    + exists []. rewrite app_nil_r, firstn_line_plus. split; [|reflexivity].
      apply IC_last; [exact Hs|]. unfold is_trailer.
      pose proof (hdr_parse_complete_tail _ _ _ _ _ HP) as (_ & Hk & _).
      rewrite firstn_length_le by exact Hk. apply hdr_parse_complete_firstn. exact HP.
    + apply KD_trailer; [exact Hs|]. apply (hdr_parse_reject_iff None [] rest e). exact HP.
  - destruct (N.lt_ge_cases (N.of_nat (length rest)) m) as [Hshort|Hlong].
    { destruct (chunk_decode_data_short b0 m rest Hshort) as [st' ->]. exact I. }
    destruct (app_split (N.to_nat m) rest) as (data & tl & -> & Hd); [lia|].
    rewrite (chunk_decode_data b0 m data tl Hm Hd), chunk_decode_terminator.
    destruct tl as [|x [|y tl]]; [exact I| |].
    + destruct (N.eqb_spec x CR); [exact I|]. apply (KD_terminator1 l m); assumption.
    + destruct (N.eqb x CR && N.eqb y LF)%bool eqn:XY.
      2:{ apply (KD_terminator2 l m); try assumption. intros [-> ->]. discriminate XY. }
      apply andb_prop in XY as [X Y]. apply N.eqb_eq in X, Y. subst x y.
      assert (Htl : length tl < length (l ++ CRLF ++ data ++ CR :: LF :: tl))
        by (rewrite !app_length; cbn [length]; lia).
      specialize (IH tl Htl (b0 ++ data)).
      destruct (chunk_decode (awaiting_size (b0 ++ data)) tl) as [st2 [k|k|e]]; cbn [cshift];
        [|exact I|].
      * destruct IH as (p & Hc & Hb). exists (data ++ p).
        split; [|rewrite Hb; apply app_assoc_reverse].
        rewrite firstn_line_plus, firstn_app_2.
        apply (IC_chunk l m data (firstn k tl) p); assumption.
      * apply (KD_later l m data tl); assumption.
Qed.

Theorem chunk_decode_sound s st n :
  chunk_decode chunk_init s = (st, Complete n) ->
  IsChunked (firstn n s) (c_buffer st) (c_trailer st).
Proof.
  intros H. pose proof (chunk_decode_answers s []) as HI.
  change (awaiting_size []) with chunk_init in HI. rewrite H in HI.
  destruct HI as (p & Hc & ->). exact Hc.
Qed.

(* the payload of a well-formed chunked body is determined by its bytes (so "exactly the
   payload"), and the grammar is unambiguous *)
Theorem IsChunked_functional c p t p' t' :
  IsChunked c p t -> IsChunked c p' t' -> p = p' /\ t = t'.
Proof.
  intros H1 H2.
  pose proof (chunk_decode_complete c p t [] H1) as E1.
  pose proof (chunk_decode_complete c p' t' [] H2) as E2.
  rewrite E1 in E2. inversion E2. split; reflexivity.
Qed.

Theorem chunked_defect_rejected s e :
  chunked_defect s e -> forall b0, exists st, chunk_decode (awaiting_size b0) s = (st, Reject e).
Proof.
  induction 1 as [l rest Hl U|l rest Hl U PH|l n data a Hs Hn Hd Ha|l n data a b rest Hs Hn Hd Hab
                  |l block e Hs BD|l n data rest e Hs Hn Hd Hc IH]; intros b0.
  - rewrite (chunk_decode_size_line b0 l rest Hl), U. eauto.
  - rewrite (chunk_decode_size_line b0 l rest Hl), U, PH. eauto.
  - rewrite (chunk_decode_chunk_data b0 l n data _ Hs Hn Hd), chunk_decode_terminator.
    destruct (N.eqb_spec a CR); [contradiction|]. cbn [cshift]. eauto.
  - rewrite (chunk_decode_chunk_data b0 l n data _ Hs Hn Hd), chunk_decode_terminator.
    destruct (N.eqb_spec a CR); [destruct (N.eqb_spec b LF); [tauto|]|]; cbn [andb cshift]; eauto.
  - destruct Hs as (Hl & Hu & Hp).
    rewrite (chunk_decode_size_line b0 l block Hl), Hu, Hp, chunk_decode_trailer.
    apply (hdr_parse_reject_iff None [] block e) in BD. rewrite BD. cbn [N.eqb cshift]. eauto.
  - rewrite (chunk_decode_chunk b0 l n data rest Hs Hn Hd).
    destruct (IH (b0 ++ data)) as [st ->]. cbn [cshift]. eauto.
Qed.

Theorem chunk_reject_iff s e :
  (exists st, chunk_decode chunk_init s = (st, Reject e)) <-> chunked_defect s e.
Proof.
  split.
  - intros [st H]. pose proof (chunk_decode_answers s []) as HI.
    change (awaiting_size []) with chunk_init in HI. rewrite H in HI. exact HI.
  - intros H. exact (chunked_defect_rejected s e H []).
Qed.
