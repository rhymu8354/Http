(* HuffmanFixed.v -- specification, no proofs: the fixed literal/length code of RFC 1951 3.2.6 (fixed_len,
   fixed_code) and the bits of a block that carries literals only in it (what zlib emits with Z_FIXED +
   Z_HUFFMAN_ONLY): the codes of the bytes, then the code of end-of-block.  That this is the canonical
   code of the model's fixed table is shown in HuffmanGen.v, that the model of inflate inverts such a
   block in DeflateStream.v (fixed_literal_block_inverts). *)
From Coq Require Import List NArith Arith.
From Http Require Import Model.Bytes Model.Inflate Proofs.HuffmanCanon.
Import ListNotations.

Definition fixed_len (sym : nat) : nat :=
  if Nat.ltb sym 144 then 8 else if Nat.ltb sym 256 then 9 else if Nat.ltb sym 280 then 7 else 8.

Definition fixed_code (sym : nat) : list bool := code_bits fixed_lit_lens sym (fixed_len sym).

(* the literals of a block, then end-of-block *)
Fixpoint lit_bits (d : bytes) : list bool :=
  match d with
  | [] => fixed_code 256
  | b :: t => fixed_code (N.to_nat b) ++ lit_bits t
  end.
