(* CopyMatch.v -- the one-traversal copy used by the model for a match that does not overlap itself
   is the byte-at-a-time copy of RFC 1951 3.2.3 ("a distance/length pair means: move backwards
   distance bytes in the output and copy length bytes from there", one byte at a time, so that a
   match may overlap the bytes it produces).  Positions before the start of the output read as zero
   (flate2's streaming window; see Model/Inflate.v). *)
From Coq Require Import List NArith Arith Lia.
From Http Require Import Model.Bytes Model.Inflate.
Import ListNotations.

Lemma copy_match_nonoverlap : forall len d out,
    len <= d ->
    copy_match len d out = map (fun i => nth i out 0%N) (seq (d - len) len) ++ out.
Proof.
  induction len as [|len IH]; intros d out H; [reflexivity|].
  cbn [copy_match]. rewrite IH by apply Nat.lt_le_incl, H.
  (* the window moves one place further back over the longer list and gains the byte just copied *)
  replace (d - len) with (S (d - S len)) by lia.
  rewrite <- seq_shift, map_map, seq_S, map_app, <- app_assoc.
  replace (d - S len + len) with (pred d) by lia. reflexivity.
Qed.

Lemma skipn_S_tl {A} a : forall l : list A, skipn (S a) l = tl (skipn a l).
Proof. induction a as [|a IH]; intros [|x l]; try reflexivity. exact (IH l). Qed.

Lemma nth_hd_skipn {A} a : forall (l : list A) d, nth a l d = hd d (skipn a l).
Proof. induction a as [|a IH]; intros [|x l] d; try reflexivity. exact (IH l d). Qed.

Lemma window_as_nth : forall len a (out : bytes),
    firstn len (skipn a out) ++ repeat 0%N (len - length (firstn len (skipn a out)))
    = map (fun i => nth i out 0%N) (seq a len).
Proof.
  induction len as [|len IH]; intros a out; [reflexivity|].
  cbn [seq map]. rewrite <- IH, skipn_S_tl, nth_hd_skipn.
  destruct (skipn a out) as [|x rest]; [|reflexivity].
  cbn. rewrite firstn_nil. cbn. rewrite Nat.sub_0_r. reflexivity.
Qed.

Theorem copy_match_fast_is_rfc_copy len d out : copy_match_fast len d out = copy_match len d out.
Proof.
  unfold copy_match_fast. destruct (Nat.leb len d) eqn:E; [|reflexivity].
  apply Nat.leb_le in E. rewrite copy_match_nonoverlap by exact E.
  rewrite app_assoc. f_equal. apply window_as_nth.
Qed.

Lemma copy_match_step len d out :
  copy_match (S len) d out = copy_match len d (nth (pred d) out 0%N :: out).
Proof. reflexivity. Qed.

Lemma copy_match_length len : forall d out, length (copy_match len d out) = len + length out.
Proof. induction len as [|len IH]; intros d out; [reflexivity|]. cbn [copy_match]. rewrite IH. simpl. lia. Qed.
