(* CheckedOk.v -- no partial operation of Model/Checked.v ever fails, and the checked parsers
   compute exactly what the pure model computes (C06 for the crate's own parsing code:
   every input, every parser state reachable under the documented protocol, every limit
   configuration).  The only premise about the machine: the bytes already stored plus the
   bytes presented fit the address space (`Vec` lengths never exceed isize::MAX).
   Each partial operation is stated with its continuation; each phase function is shown to succeed with
   a result that, once the later phases are run on the rest, is the pure model's answer (round_ok,
   sround_ok); the loops of `parse` follow by induction on the fuel, the phases only advancing. *)
From Coq Require Import Lia String.
From Http Require Import Model.Bytes Model.Utf8 Model.Num Model.Headers Model.Request
     Model.Chunked Model.Response Model.Coding Model.Checked
     Proofs.BytesLemmas Proofs.HeadersResume Proofs.ReqResume Proofs.ChunkResume Proofs.RespResume
     Proofs.Safety.

Lemma ck_from_ok {B} site s k (f : bytes -> chk B) :
  k <= length s -> cbind (ck_from site s k) f = f (skipn k s).
Proof. intros H. unfold ck_from. apply Nat.leb_le in H. rewrite H. reflexivity. Qed.
Lemma ck_to_ok {B} site s k (f : bytes -> chk B) :
  k <= length s -> cbind (ck_to site s k) f = f (firstn k s).
Proof. intros H. unfold ck_to. apply Nat.leb_le in H. rewrite H. reflexivity. Qed.
Lemma ck_addn_ok {B} site a b (f : nat -> chk B) :
  (N.of_nat a + N.of_nat b <= USIZE_MAX)%N -> cbind (ck_addn site a b) f = f (a + b).
Proof. intros H. unfold ck_addn. apply N.leb_le in H. rewrite H. reflexivity. Qed.
Lemma ck_subn_ok {B} site a b (f : nat -> chk B) : b <= a -> cbind (ck_subn site a b) f = f (a - b).
Proof. intros H. unfold ck_subn. apply Nat.leb_le in H. rewrite H. reflexivity. Qed.
Lemma ck_subN_ok {B} site a b (f : N -> chk B) : (b <= a)%N -> cbind (ck_subN site a b) f = f (a - b)%N.
Proof. intros H. unfold ck_subN. apply N.leb_le in H. rewrite H. reflexivity. Qed.
Lemma ck_grow_ok {B} site len add (f : unit -> chk B) :
  (N.of_nat len + add <= ISIZE_MAX)%N -> cbind (ck_grow site len add) f = f tt.
Proof. intros H. unfold ck_grow. apply N.leb_le in H. rewrite H. reflexivity. Qed.

Lemma isize_le_usize n : (n <= ISIZE_MAX)%N -> (n <= USIZE_MAX)%N.
Proof. unfold ISIZE_MAX, USIZE_MAX. lia. Qed.

(* offsets into a buffer that fits the address space add up without overflow *)
Lemma small_add_ok {B} site a b n (f : nat -> chk B) :
  a + b <= n -> (N.of_nat n <= ISIZE_MAX)%N -> cbind (ck_addn site a b) f = f (a + b).
Proof. intros H Hn. apply ck_addn_ok, isize_le_usize. lia. Qed.

(* `total_consumed += consumed` in the loops of `parse` and `decode`: a round consumes no more than
   what was left of the input *)
Lemma consumed_add_ok {B} site (raw : bytes) total c (f : nat -> chk B) :
  total <= length raw -> c <= length (skipn total raw) -> (N.of_nat (length raw) <= ISIZE_MAX)%N ->
  cbind (ck_addn site total c) f = f (total + c).
Proof.
  intros Ht Hc Hraw. rewrite skipn_length in Hc. apply (small_add_ok _ _ _ (length raw)); [lia|exact Hraw].
Qed.

Lemma char_boundary_b s k : char_boundary s k -> is_boundaryb s k = true.
Proof.
  unfold char_boundary, is_boundaryb. intros [H|[H|[b [Hn Hc]]]].
  - subst. reflexivity.
  - subst. rewrite Nat.eqb_refl. apply orb_true_iff. left. apply orb_true_r.
  - rewrite Hn, Hc. apply orb_true_r.
Qed.

Lemma ck_str_to_ok {B} site s k (f : bytes -> chk B) :
  k <= length s -> char_boundary s k -> cbind (ck_str_to site s k) f = f (firstn k s).
Proof.
  intros H C. unfold ck_str_to. apply Nat.leb_le in H. rewrite H, (char_boundary_b _ _ C). reflexivity.
Qed.
Lemma ck_str_from_ok {B} site s k (f : bytes -> chk B) :
  k <= length s -> char_boundary s k -> cbind (ck_str_from site s k) f = f (skipn k s).
Proof.
  intros H C. unfold ck_str_from. apply Nat.leb_le in H. rewrite H, (char_boundary_b _ _ C). reflexivity.
Qed.

Lemma sp_ascii : (SP < 128)%N.  Proof. unfold SP. lia. Qed.
Lemma semi_ascii : (SEMI < 128)%N.  Proof. unfold SEMI. lia. Qed.

(* how the source splits a str at an ASCII delimiter it has found: `&s[..d]`, then `d + 1` and
   `&s[d + 1..]`; what follows the delimiter is a str again, no longer than s *)
Lemma delim_ok c s d :
  utf8_valid s = true -> (c < 128)%N -> (N.of_nat (length s) <= ISIZE_MAX)%N -> find_byte c s = Some d ->
  (forall B site (f : bytes -> chk B), cbind (ck_str_to site s d) f = f (firstn d s)) /\
  (forall B site1 site2 (f : bytes -> chk B),
     cbind (ck_addn site1 d 1) (fun d1 => cbind (ck_str_from site2 s d1) f) = f (skipn (S d) s)) /\
  utf8_valid (skipn (S d) s) = true /\ length (skipn (S d) s) <= length s.
Proof.
  intros Hv Hc Hsz F. pose proof (find_byte_bound _ _ _ F) as Hd.
  destruct (ascii_delimiter_boundaries _ _ _ Hv Hc F) as [B1 B2].
  rewrite skipn_length. repeat split.
  - intros B site f. apply ck_str_to_ok; [lia|exact B1].
  - intros B site1 site2 f. rewrite (small_add_ok _ _ _ (length s)), Nat.add_1_r; [|lia|exact Hsz].
    apply ck_str_from_ok; [lia|exact B2].
  - exact (utf8_valid_after_delim _ _ _ Hv Hc F).
  - lia.
Qed.

(* x runs without a failure, and its value satisfies Q *)
Definition cpost {A} (x : chk A) (Q : A -> Prop) : Prop :=
  match x with COk a => Q a | CPanic _ => False end.

Lemma cpost_eq {A} (x : chk A) v : cpost x (eq v) -> x = COk v.
Proof. destruct x; [intros ->; reflexivity|contradiction]. Qed.

Lemma cpost_bind {A B} (x : chk A) (f : A -> chk B) (P : A -> Prop) Q :
  cpost x P -> (forall a, P a -> cpost (f a) Q) -> cpost (cbind x f) Q.
Proof. destruct x; [intros H K; exact (K a H)|contradiction]. Qed.

(* No proof depends on what a site label says.  Each is a long literal that every step on a goal
   would otherwise carry along: replace them by variables right after a checked function is unfolded. *)
Ltac forget_sites :=
  repeat match goal with |- context [String ?a ?s] => generalize (String a s); intro end.

Section Req.
  Variable uri : Type.
  Variable uri_parse : bytes -> option uri.
  Notation state := (req_state uri).

  Lemma c_parse_request_line_ok line :
    utf8_valid line = true -> (N.of_nat (length line) <= ISIZE_MAX)%N ->
    c_parse_request_line uri uri_parse line = COk (parse_request_line uri uri_parse line).
  Proof.
    intros Hv Hsz. apply cpost_eq. unfold c_parse_request_line, parse_request_line. forget_sites.
    destruct (find_byte SP line) as [md|] eqn:F; [|reflexivity].
    destruct (delim_ok _ _ _ Hv sp_ascii Hsz F) as (E1 & E2 & Hv2 & Hl).
    rewrite E1. destruct md as [|md']; [reflexivity|]. rewrite E2.
    destruct (find_byte SP (skipn (S (S md')) line)) as [td|] eqn:F2; [|reflexivity].
    destruct (delim_ok _ _ _ Hv2 sp_ascii ltac:(lia) F2) as (G1 & G2 & _).
    destruct td as [|td']; [reflexivity|]. rewrite G1.
    destruct (uri_parse _) as [u|]; [|reflexivity].
    rewrite G2. reflexivity.
  Qed.

  (* the answer of `parse` that the result r of a phase function stands for when k bytes were
     consumed before it: after RPart the later phases `cont` give the answer; a rejection leaves
     the state st0 that `parse` was called in *)
  Definition of_rstep (k : nat) (cont : state -> nat -> state * outcome) (st0 : state) (r : rstep uri)
    : state * outcome :=
    match r with
    | RErr _ e => (st0, Reject e)
    | RWhole _ st c => (st, Complete (k + c))
    | RInc _ st c => (st, Incomplete (k + c))
    | RPart _ st c => cont st (k + c)
    end.

  (* memory premise: what is stored plus what is presented fits *)
  Definition fits (stored : nat) (raw : bytes) : Prop :=
    (N.of_nat stored + N.of_nat (length raw) <= ISIZE_MAX)%N.

  (* the pure model runs the later phases on the rest of the input itself *)
  Definition later_phases (cfg : rcfg) (rem : bytes) (st : state) (c : nat) : state * outcome :=
    shift uri c (req_dispatch uri uri_parse cfg st (skipn c rem)).

  (* rounds of the loop still to come, at most *)
  Definition rounds_left (st : state) : nat :=
    match r_phase st with PRequestLine => 2 | PHeaders => 1 | PBody _ => 0 end.

  (* what the loop needs of one round: with the later phases run on the rest it is the pure model's
     answer, it consumes no more than was presented, and a state that goes on to another round is
     one the loop can be run on again, in a later phase and with nothing added to the body *)
  Definition round_ok (cfg : rcfg) (st : state) (rem : bytes) (r : rstep uri) : Prop :=
    of_rstep 0 (later_phases cfg rem) st r = req_dispatch uri uri_parse cfg st rem /\
    match r with
    | RErr _ _ => True
    | RWhole _ _ c | RInc _ _ c => c <= length rem
    | RPart _ st' c => c <= length rem /\ body_inv uri st' /\ r_body st' = r_body st /\ rounds_left st' < rounds_left st
    end.

  Lemma c_req_body_ok cfg st n rem :
    r_phase st = PBody n -> (N.of_nat (length (r_body st)) <= n)%N -> fits (length (r_body st)) rem ->
    cpost (c_req_body uri st n rem) (round_ok cfg st rem).
  Proof.
    intros Hph Hinv Hfit. unfold round_ok, req_dispatch, fits in *. rewrite Hph.
    unfold c_req_body, req_body. forget_sites.
    rewrite ck_subN_ok by exact Hinv.
    destruct (N.leb _ _) eqn:E.
    - apply N.leb_le in E. rewrite ck_to_ok by lia.
      rewrite ck_grow_ok by (rewrite firstn_length; lia). split; [reflexivity|lia].
    - rewrite ck_grow_ok by lia. split; [reflexivity|lia].
  Qed.

  Lemma c_req_headers_ok cfg st rem :
    r_phase st = PHeaders -> r_body st = [] -> fits 0 rem ->
    cpost (c_req_headers uri cfg st rem) (round_ok cfg st rem).
  Proof.
    intros Hph Hb Hfit. unfold round_ok, req_dispatch, rounds_left, body_inv, fits in *. rewrite Hph.
    unfold c_req_headers, req_headers. forget_sites.
    pose proof (hdr_parse_bound (hl cfg) (r_headers st) (strip_cr rem)) as Hc.
    pose proof (strip_cr_length rem) as Hs.
    destruct (hdr_parse (hl cfg) (r_headers st) (strip_cr rem)) as [hs c|hs c|e]; [| |now split].
    - destruct (count_bytes cfg (r_total st) (N.of_nat c)) as [t|]; [|now split].
      destruct (header_value hs CONTENT_LENGTH) as [v|]; [|split; [reflexivity|lia]].
      destruct (parse_dec v) as [n|]; [|now split].
      destruct (count_bytes cfg t n) as [t2|]; [|now split].
      rewrite Hb. rewrite ck_grow_ok by (cbn [length]; lia).
      split; [reflexivity|]. cbn. repeat split; lia.
    - destruct (count_bytes cfg (r_total st) (N.of_nat c)) as [t|]; [|now split].
      split; [reflexivity|lia].
  Qed.

  Lemma c_req_line_ok cfg st rem :
    r_phase st = PRequestLine -> r_body st = [] -> fits 0 rem ->
    cpost (c_req_line uri uri_parse cfg st rem) (round_ok cfg st rem).
  Proof.
    intros Hph Hb Hfit. unfold round_ok, req_dispatch, rounds_left, body_inv, fits in *. rewrite Hph.
    unfold c_req_line, req_line. forget_sites.
    destruct (find_crlf rem) as [e|] eqn:F.
    - pose proof (find_crlf_bound _ _ F) as B.
      destruct (over_limit e (rl cfg)) eqn:O.
      + destruct (rl cfg) as [l|]; [|now split].
        unfold over_limit in O. apply N.ltb_lt in O. rewrite ck_to_ok by lia. now split.
      + rewrite ck_to_ok by lia.
        destruct (utf8_valid (firstn e rem)) eqn:V; [|now split]. cbn [negb].
        rewrite (small_add_ok _ _ _ (length rem)) by lia.
        destruct (count_bytes cfg (r_total st) (N.of_nat (e + 2))) as [t|]; [|now split].
        rewrite c_parse_request_line_ok; [|exact V|rewrite firstn_length; lia]. cbn [cbind].
        destruct (parse_request_line uri uri_parse (firstn e rem)) as [[meth u]|er]; [|now split].
        split; [reflexivity|]. cbn. repeat split; [lia|exact Hb|lia].
    - destruct (over_limit (length (strip_cr rem)) (rl cfg)) eqn:O.
      + destruct (rl cfg) as [l|]; [|now split].
        unfold over_limit in O. apply N.ltb_lt in O. pose proof (strip_cr_length rem).
        rewrite ck_to_ok by lia. now split.
      + split; [reflexivity|lia].
  Qed.

  Lemma c_req_step_ok cfg st rem :
    body_inv uri st -> fits (length (r_body st)) rem ->
    cpost (c_req_step uri uri_parse cfg st rem) (round_ok cfg st rem).
  Proof.
    unfold c_req_step, body_inv. destruct (r_phase st) as [| |n] eqn:Hph; intros Hinv Hfit.
    - rewrite Hinv in Hfit. apply c_req_line_ok; assumption.
    - rewrite Hinv in Hfit. apply c_req_headers_ok; assumption.
    - apply c_req_body_ok; assumption.
  Qed.

  (* the loop of Request::parse: each round is in a later phase than the one before *)
  Lemma c_req_loop_ok f : forall cfg st raw total,
    rounds_left st < f -> total <= length raw -> body_inv uri st -> fits (length (r_body st)) raw ->
    c_req_loop uri uri_parse f cfg st raw total
    = COk (shift uri total (req_dispatch uri uri_parse cfg st (skipn total raw))).
  Proof.
    induction f as [|f IH]; intros cfg st raw total Hr Ht Hinv Hfit; [lia|].
    apply cpost_eq. cbn [c_req_loop]. forget_sites.
    assert (Hraw : (N.of_nat (length raw) <= ISIZE_MAX)%N) by (unfold fits in Hfit; lia).
    pose proof (skipn_length total raw) as Hl.
    rewrite ck_from_ok by exact Ht.
    apply (cpost_bind _ _ (round_ok cfg st (skipn total raw))).
    { apply c_req_step_ok; [exact Hinv|]. unfold fits in *. lia. }
    intros r [E Hn]. rewrite <- E.
    destruct r as [st' c|st' c|st' c|e].
    - destruct Hn as (Hc & Hinv' & Hb & Hr').
      rewrite (consumed_add_ok _ raw); [|exact Ht|exact Hc|exact Hraw].
      cbn [of_rstep Nat.add]. unfold later_phases.
      rewrite IH; [|lia|lia|exact Hinv'|rewrite Hb; exact Hfit].
      rewrite shift_shift, skipn_skipn'. reflexivity.
    - rewrite (consumed_add_ok _ raw); [reflexivity|exact Ht|exact Hn|exact Hraw].
    - rewrite (consumed_add_ok _ raw); [reflexivity|exact Ht|exact Hn|exact Hraw].
    - reflexivity.
  Qed.

  (* Request::parse, any reachable state: no operation fails, and the answer is the pure
     model's *)
  Theorem c_req_parse_ok cfg st raw :
    body_inv uri st -> fits (length (r_body st)) raw ->
    c_req_parse uri uri_parse cfg st raw = COk (req_parse uri uri_parse cfg st raw).
  Proof.
    intros Hinv Hfit. unfold c_req_parse. rewrite req_parse_eq.
    rewrite c_req_loop_ok; [|unfold rounds_left; destruct (r_phase st); lia|lia|exact Hinv|exact Hfit].
    cbn [cbind skipn]. rewrite shift_0.
    destruct (req_dispatch uri uri_parse cfg st raw) as [st' [c|c|e]] eqn:D; try reflexivity.
    rewrite ck_subn_ok; [reflexivity|].
    exact (req_dispatch_bound _ _ _ _ _ _ _ D).
  Qed.

  (* the states a parser is in when `parse` is called under the documented protocol: the fresh
     value, and whatever a call that asked for more input left behind *)
  Inductive req_reach (cfg : rcfg) : req_state uri -> Prop :=
  | req_reach_init : req_reach cfg req_init
  | req_reach_step st buf st' c :
      req_reach cfg st -> req_parse uri uri_parse cfg st buf = (st', Incomplete c) -> req_reach cfg st'.

  Lemma req_reach_inv cfg st : req_reach cfg st -> body_inv uri st.
  Proof.
    induction 1 as [|st buf st' c _ IH E]; [reflexivity|].
    exact (req_parse_inv uri uri_parse cfg st buf st' (Incomplete c) IH E).
  Qed.

  Theorem c_req_parse_reachable cfg st raw :
    req_reach cfg st -> fits (length (r_body st)) raw ->
    c_req_parse uri uri_parse cfg st raw = COk (req_parse uri uri_parse cfg st raw).
  Proof. intros R. apply c_req_parse_ok. apply (req_reach_inv cfg). exact R. Qed.
End Req.

Lemma c_parse_chunk_size_ok line :
  utf8_valid line = true -> c_parse_chunk_size line = COk (parse_chunk_size line).
Proof.
  intros Hv. unfold c_parse_chunk_size, parse_chunk_size.
  destruct (find_byte SEMI line) as [d|] eqn:F.
  - pose proof (find_byte_bound _ _ _ F) as B.
    destruct (ascii_delimiter_boundaries _ _ _ Hv semi_ascii F) as [B1 _].
    rewrite ck_str_to_ok; [reflexivity|lia|exact B1].
  - rewrite ck_str_to_ok, firstn_all; [reflexivity|lia|right; left; reflexivity].
Qed.

Lemma c_chunk_step_ok st rem :
  (N.of_nat (length (c_buffer st)) + N.of_nat (length rem) <= ISIZE_MAX)%N ->
  c_chunk_step st rem = COk (chunk_step st rem).
Proof.
  intros Hfit. unfold c_chunk_step, chunk_step. destruct (c_phase st) as [|needed| |]; try reflexivity.
  - unfold c_decode_size, decode_size. forget_sites.
    destruct (find_crlf rem) as [e|] eqn:F; [|reflexivity].
    pose proof (find_crlf_bound _ _ F) as B.
    rewrite ck_to_ok by lia.
    destruct (utf8_valid (firstn e rem)) eqn:V; cbn [negb]; [|reflexivity].
    rewrite (small_add_ok _ _ _ (length rem)) by lia.
    rewrite c_parse_chunk_size_ok by exact V. cbn [cbind].
    destruct (parse_chunk_size (firstn e rem)) as [n|]; [|reflexivity].
    rewrite ck_grow_ok by lia. reflexivity.
  - unfold c_decode_data, decode_data. cbv zeta. forget_sites.
    set (k := if N.leb needed (N.of_nat (length rem)) then N.to_nat needed else length rem).
    assert (Hk : k <= length rem /\ (N.of_nat k <= needed)%N).
    { subst k. destruct (N.leb needed (N.of_nat (length rem))) eqn:E;
        [apply N.leb_le in E|apply N.leb_gt in E]; lia. }
    rewrite ck_subN_ok by lia.
    rewrite ck_to_ok by lia.
    rewrite ck_grow_ok by (rewrite firstn_length; lia). reflexivity.
Qed.

Lemma c_chunk_loop_ok f : forall st raw total,
  cwf st -> total <= length raw -> length raw - total < f ->
  (N.of_nat (length raw) <= ISIZE_MAX)%N ->
  (N.of_nat (length (c_buffer st)) + N.of_nat (length raw - total) <= ISIZE_MAX)%N ->
  c_chunk_loop f st raw total = COk (chunk_loop f st (skipn total raw) total).
Proof.
  induction f as [|f IH]; intros st raw total Hwf Ht Hf Hraw Hfit; [lia|].
  rewrite chunk_loop_step. cbn [c_chunk_loop]. forget_sites.
  pose proof (skipn_length total raw) as Hl.
  rewrite ck_from_ok by exact Ht.
  rewrite c_chunk_step_ok by lia. cbn [cbind].
  pose proof (chunk_step_buffer st (skipn total raw)) as Hbuf.
  pose proof (chunk_step_app st (skipn total raw) [] Hwf) as A.
  destruct (chunk_step st (skipn total raw)) as [st' c|st' c|st' c|e]; cbn [step_resumes] in A.
  - destruct A as (_ & Hp & Hc & Hwf'), Hbuf as (k & Hk & Hb).
    rewrite (consumed_add_ok _ raw); [|exact Ht|exact Hc|exact Hraw].
    rewrite IH; [|exact Hwf'|lia|lia|exact Hraw|lia].
    rewrite skipn_skipn'. reflexivity.
  - destruct A as (_ & Hc).
    rewrite (consumed_add_ok _ raw); [reflexivity|exact Ht|exact Hc|exact Hraw].
  - destruct A as (Hc & _).
    rewrite (consumed_add_ok _ raw); [reflexivity|exact Ht|exact Hc|exact Hraw].
  - reflexivity.
Qed.

Theorem c_chunk_decode_ok st raw :
  cwf st -> (N.of_nat (length (c_buffer st)) + N.of_nat (length raw) <= ISIZE_MAX)%N ->
  c_chunk_decode st raw = COk (chunk_decode st raw).
Proof.
  intros Hwf Hfit. unfold c_chunk_decode, chunk_decode.
  rewrite c_chunk_loop_ok; [reflexivity|exact Hwf|lia..].
Qed.

Lemma c_parse_status_line_ok line :
  utf8_valid line = true -> (N.of_nat (length line) <= ISIZE_MAX)%N ->
  c_parse_status_line line = COk (parse_status_line line).
Proof.
  intros Hv Hsz. apply cpost_eq. unfold c_parse_status_line, parse_status_line. forget_sites.
  destruct (find_byte SP line) as [pd|] eqn:F; [|reflexivity].
  destruct (delim_ok _ _ _ Hv sp_ascii Hsz F) as (E1 & E2 & Hv2 & Hl).
  rewrite E1.
  destruct (negb (bytes_eqb (firstn pd line) HTTP11)); [reflexivity|].
  rewrite E2.
  destruct (find_byte SP (skipn (S pd) line)) as [cd|] eqn:F2; [|reflexivity].
  destruct (delim_ok _ _ _ Hv2 sp_ascii ltac:(lia) F2) as (G1 & G2 & _).
  rewrite G1.
  destruct (parse_dec (firstn cd (skipn (S pd) line))) as [code|]; [|reflexivity].
  destruct (N.ltb code 1000); [|reflexivity].
  rewrite G2. reflexivity.
Qed.

(* the states a response parser goes through while one message is being parsed (from
   Response::new() until it reports completion) *)
Definition resp_inv (st : resp_state) : Prop :=
  match s_phase st with
  | SFixedBody n => (N.of_nat (length (s_body st)) <= n)%N
  | SChunkedBody cs => cwf cs
  | _ => s_body st = []
  end.

Definition resp_fits (st : resp_state) (raw : bytes) : Prop :=
  (N.of_nat (length (s_body st)) + N.of_nat (length raw) <= ISIZE_MAX)%N /\
  (N.of_nat (length (s_trailer st)) + N.of_nat (length raw) <= ISIZE_MAX)%N /\
  match s_phase st with
  | SChunkedBody cs => (N.of_nat (length (c_buffer cs)) + N.of_nat (length raw) <= ISIZE_MAX)%N
  | _ => True
  end.

Lemma resp_fits_le st raw rem : length rem <= length raw -> resp_fits st raw -> resp_fits st rem.
Proof.
  intros H (F1 & F2 & F3). split; [lia|split; [lia|]].
  revert F3. destruct (s_phase st); trivial. lia.
Qed.

(* a later phase of the same call stores what the earlier one did, and starts a chunked body empty *)
Lemma resp_fits_next st st' raw :
  s_body st' = s_body st -> s_trailer st' = s_trailer st ->
  match s_phase st' with SChunkedBody cs => c_buffer cs = [] | _ => True end ->
  resp_fits st raw -> resp_fits st' raw.
Proof.
  intros Eb Et Hc (F1 & F2 & _). unfold resp_fits. rewrite Eb, Et. split; [exact F1|split; [exact F2|]].
  destruct (s_phase st'); trivial. rewrite Hc. cbn [length]. lia.
Qed.

(* the state that accompanies a rejection is never used (Response::parse leaves the value in
   an unspecified state on error); answers are compared up to it *)
Definition cok_roeq (x : chk (resp_state * outcome)) (r : resp_state * outcome) : Prop :=
  exists r', x = COk r' /\ roeq r' r.

Lemma cok_roeq_post x r : cpost x (fun r' => roeq r' r) -> cok_roeq x r.
Proof. destruct x as [r'|]; [exists r'; split; [reflexivity|assumption]|contradiction]. Qed.

Lemma resp_chunked_phase st st' cs b :
  s_code st = s_code st' -> s_reason st = s_reason st' -> s_headers st = s_headers st' ->
  s_body st = s_body st' -> s_trailer st = s_trailer st' ->
  roeq (resp_chunked st cs b) (resp_chunked st' cs b).
Proof.
  intros E1 E2 E3 E4 E5. unfold resp_chunked. rewrite E1, E2, E3, E4, E5.
  destruct (chunk_decode cs b) as [cs' [c|c|e]]; simpl; reflexivity.
Qed.

(* of_rstep for responses, whose phases count from the start of what they are given *)
Definition of_sstep (cont : resp_state -> nat -> resp_state * outcome) (st0 : resp_state) (r : sstep)
  : resp_state * outcome :=
  match r with
  | SErr e => (st0, Reject e)
  | SWhole st c => (st, Complete c)
  | SInc st c => (st, Incomplete c)
  | SPart st c => cont st c
  end.

Definition resp_later_phases (rem : bytes) (st : resp_state) (c : nat) : resp_state * outcome :=
  rshift c (resp_parse st (skipn c rem)).

Definition resp_rounds_left (st : resp_state) : nat :=
  match s_phase st with SStatusLine => 2 | SHeaders => 1 | _ => 0 end.

(* all that `content_length - self.body.len()` needs of a value that has not reached its body yet:
   whatever Content-Length the header block goes on to declare is at least what the value holds *)
Definition declared_covers (hs : list header) (body : bytes) : Prop :=
  forall rem hs' c v n,
    hdr_parse None hs rem = HComplete hs' c -> header_value hs' CONTENT_LENGTH = Some v ->
    parse_dec v = Some n -> (N.of_nat (length body) <= n)%N.

(* what the checked parser needs of the state it is called in *)
Definition resp_pre (st : resp_state) : Prop :=
  match s_phase st with
  | SFixedBody n => (N.of_nat (length (s_body st)) <= n)%N
  | SChunkedBody cs => cwf cs
  | _ => declared_covers (s_headers st) (s_body st)
  end.

Definition sround_ok (st : resp_state) (rem : bytes) (r : sstep) : Prop :=
  roeq (of_sstep (resp_later_phases rem) st r) (resp_parse st rem) /\
  match r with
  | SErr _ => True
  | SWhole _ c | SInc _ c => c <= length rem
  | SPart st' c =>
    c <= length rem /\ resp_pre st' /\ (forall raw, resp_fits st raw -> resp_fits st' raw) /\
    resp_rounds_left st' < resp_rounds_left st
  end.

Lemma c_resp_fixed_ok st n rem :
  s_phase st = SFixedBody n -> (N.of_nat (length (s_body st)) <= n)%N -> resp_fits st rem ->
  cpost (c_resp_fixed st n rem) (sround_ok st rem).
Proof.
  intros Hph Hinv (F1 & F2 & _). unfold sround_ok, resp_parse. rewrite Hph.
  unfold c_resp_fixed, resp_fixed. forget_sites.
  rewrite ck_subN_ok by exact Hinv.
  destruct (N.leb _ _) eqn:E.
  - apply N.leb_le in E. rewrite ck_to_ok by lia. rewrite ck_from_ok by lia.
    rewrite ck_grow_ok by (rewrite firstn_length; lia).
    rewrite ck_grow_ok by (rewrite skipn_length; lia). now split.
  - rewrite ck_grow_ok by lia. now split.
Qed.

Lemma c_resp_chunked_ok st cs rem :
  s_phase st = SChunkedBody cs -> cwf cs -> resp_fits st rem ->
  cpost (c_resp_chunked st cs rem) (sround_ok st rem).
Proof.
  intros Hph Hwf (_ & _ & F3). rewrite Hph in F3. unfold sround_ok, resp_parse. rewrite Hph.
  unfold c_resp_chunked, resp_chunked. rewrite c_chunk_decode_ok by assumption. cbn [cbind].
  pose proof (chunk_decode_consumed cs rem) as Hc.
  destruct (chunk_decode cs rem) as [cs' [c|c|e]]; [| |now split]; (split; [apply roeq_refl|]).
  - exact (Hc cs' c Hwf (or_introl eq_refl)).
  - exact (Hc cs' c Hwf (or_intror eq_refl)).
Qed.

Lemma c_resp_headers_ok st rem :
  s_phase st = SHeaders -> declared_covers (s_headers st) (s_body st) -> resp_fits st rem ->
  cpost (c_resp_headers st rem) (sround_ok st rem).
Proof.
  intros Hph Hcov (F1 & F2 & _). unfold sround_ok, resp_parse, resp_rounds_left. rewrite Hph.
  unfold c_resp_headers, resp_headers. forget_sites.
  pose proof (hdr_parse_bound None (s_headers st) rem) as Hc.
  destruct (hdr_parse None (s_headers st) rem) as [hs c|hs c|e] eqn:HP; [|now split..].
  destruct (header_value hs CONTENT_LENGTH) as [v|] eqn:HV.
  - destruct (parse_dec v) as [n|] eqn:PD; [|now split].
    pose proof (Hcov _ _ _ _ _ HP HV PD) as Hle.
    rewrite ck_grow_ok by lia. split; [apply roeq_refl|].
    split; [exact Hc|split; [exact Hle|split; [|cbn; lia]]]. intros raw. now apply resp_fits_next.
  - destruct (has_header_token hs TRANSFER_ENCODING CHUNKED); [|now split]. split.
    + apply roeq_rshift, resp_chunked_phase; reflexivity.
    + split; [exact Hc|split; [exact cwf_init|split; [|cbn; lia]]]. intros raw. now apply resp_fits_next.
Qed.

Lemma c_resp_line_ok st rem :
  s_phase st = SStatusLine -> declared_covers (s_headers st) (s_body st) -> resp_fits st rem ->
  cpost (c_resp_line st rem) (sround_ok st rem).
Proof.
  intros Hph Hcov (F1 & F2 & _). unfold sround_ok, resp_parse, resp_rounds_left. rewrite Hph.
  unfold c_resp_line, resp_line. forget_sites.
  destruct (find_crlf rem) as [e|] eqn:F; [|split; [apply roeq_refl|lia]].
  pose proof (find_crlf_bound _ _ F) as B.
  rewrite ck_to_ok by lia.
  destruct (utf8_valid (firstn e rem)) eqn:V; [|now split]. cbn [negb].
  rewrite (small_add_ok _ _ _ (length rem)) by lia.
  rewrite c_parse_status_line_ok; [|exact V|rewrite firstn_length; lia]. cbn [cbind].
  destruct (parse_status_line (firstn e rem)) as [[code reason]|er]; [|now split].
  split; [apply roeq_refl|].
  split; [lia|split; [exact Hcov|split; [|cbn; lia]]]. intros raw. now apply resp_fits_next.
Qed.

Lemma c_resp_step_ok st rem :
  resp_pre st -> resp_fits st rem -> cpost (c_resp_step st rem) (sround_ok st rem).
Proof.
  unfold c_resp_step, resp_pre. destruct (s_phase st) eqn:Hph; intros Hpre Hfit.
  - apply c_resp_line_ok; assumption.
  - apply c_resp_headers_ok; assumption.
  - apply c_resp_fixed_ok; assumption.
  - apply c_resp_chunked_ok; assumption.
Qed.

Lemma c_resp_loop_ok f : forall st raw total,
  resp_rounds_left st < f -> total <= length raw -> resp_pre st -> resp_fits st raw ->
  cok_roeq (c_resp_loop f st raw total) (rshift total (resp_parse st (skipn total raw))).
Proof.
  induction f as [|f IH]; intros st raw total Hr Ht Hpre Hfit; [lia|].
  apply cok_roeq_post. cbn [c_resp_loop]. forget_sites.
  assert (Hraw : (N.of_nat (length raw) <= ISIZE_MAX)%N) by (destruct Hfit as [F1 _]; lia).
  pose proof (skipn_length total raw) as Hl.
  rewrite ck_from_ok by exact Ht.
  apply (cpost_bind _ _ (sround_ok st (skipn total raw))).
  { apply c_resp_step_ok; [exact Hpre|]. apply (resp_fits_le st raw); [lia|exact Hfit]. }
  intros r [E Hn]. apply (roeq_rshift total) in E.
  destruct r as [st' c|st' c|st' c|e].
  - destruct Hn as (Hc & Hpre' & Hfit' & Hr').
    rewrite (consumed_add_ok _ raw); [|exact Ht|exact Hc|exact Hraw].
    destruct (IH st' raw (total + c)) as [r' [-> R]]; [lia|lia|exact Hpre'|exact (Hfit' raw Hfit)|].
    apply (roeq_trans _ _ _ R). cbn [of_sstep] in E. unfold resp_later_phases in E.
    rewrite rshift_rshift, skipn_skipn' in E. exact E.
  - rewrite (consumed_add_ok _ raw); [exact E|exact Ht|exact Hn|exact Hraw].
  - rewrite (consumed_add_ok _ raw); [exact E|exact Ht|exact Hn|exact Hraw].
  - exact E.
Qed.

(* Response::parse in any state in which every Content-Length that can still be declared covers
   the body held: no operation fails, and the answer is the pure model's *)
Theorem c_resp_parse_pre st raw :
  resp_pre st -> resp_fits st raw -> cok_roeq (c_resp_parse st raw) (resp_parse st raw).
Proof.
  intros Hpre Hfit. rewrite <- (rshift_0 (resp_parse st raw)).
  apply (c_resp_loop_ok 3 st raw 0); [unfold resp_rounds_left; destruct (s_phase st); lia|lia|exact Hpre|exact Hfit].
Qed.

Lemma resp_inv_pre st : resp_inv st -> resp_pre st.
Proof.
  unfold resp_inv, resp_pre. destruct (s_phase st); trivial;
    intros -> rem hs c v n _ _ _; apply N.le_0_l.
Qed.

(* Response::parse in any state met while one message is being parsed: no operation fails, and
   the answer is the pure model's *)
Theorem c_resp_parse_ok st raw :
  resp_inv st -> resp_fits st raw ->
  cok_roeq (c_resp_parse st raw) (resp_parse st raw).
Proof. intros Hinv. apply c_resp_parse_pre, resp_inv_pre, Hinv. Qed.

Theorem resp_inv_init : resp_inv resp_init.
Proof. reflexivity. Qed.

(* the invariant is kept for as long as the parser asks for more input *)
Definition if_incomplete (Q : resp_state -> Prop) (r : resp_state * outcome) : Prop :=
  match r with (s, Incomplete _) => Q s | _ => True end.

Lemma if_incomplete_rshift Q k r : if_incomplete Q r -> if_incomplete Q (rshift k r).
Proof. destruct r as [s [c|c|e]]; exact id. Qed.

Lemma resp_fixed_inv st n buf : if_incomplete resp_inv (resp_fixed st n buf).
Proof.
  unfold resp_fixed. destruct (N.leb _ _) eqn:E; [exact I|].
  unfold if_incomplete, resp_inv. cbn [s_phase s_body]. apply N.leb_gt in E. rewrite app_length. lia.
Qed.

Lemma resp_chunked_inv st cs buf : cwf cs -> if_incomplete resp_inv (resp_chunked st cs buf).
Proof.
  intros Hwf. unfold resp_chunked. pose proof (chunk_decode_app cs buf [] Hwf) as A.
  destruct (chunk_decode cs buf) as [cs' [k|k|e]]; try exact I. exact (proj1 (proj2 A)).
Qed.

Lemma resp_headers_inv st buf : s_body st = [] -> if_incomplete resp_inv (resp_headers st buf).
Proof.
  intros Hb. unfold resp_headers.
  destruct (hdr_parse None (s_headers st) buf) as [hs k|hs k|e]; [|exact Hb|exact I].
  destruct (header_value hs CONTENT_LENGTH) as [v|].
  - destruct (parse_dec v) as [n|]; [|exact I].
    apply if_incomplete_rshift, resp_fixed_inv.
  - destruct (has_header_token hs TRANSFER_ENCODING CHUNKED); [|exact I].
    apply if_incomplete_rshift, resp_chunked_inv, cwf_init.
Qed.

Lemma resp_parse_inv st buf : resp_inv st -> if_incomplete resp_inv (resp_parse st buf).
Proof.
  unfold resp_inv at 1, resp_parse. destruct (s_phase st) as [| |n|cs] eqn:Hph; intros Hinv.
  - unfold resp_line.
    destruct (find_crlf buf) as [e|]; [|unfold if_incomplete, resp_inv; rewrite Hph; exact Hinv].
    destruct (negb _); [exact I|].
    destruct (parse_status_line _) as [[code reason]|er]; [|exact I].
    apply if_incomplete_rshift, resp_headers_inv. exact Hinv.
  - apply resp_headers_inv, Hinv.
  - apply resp_fixed_inv.
  - apply resp_chunked_inv, Hinv.
Qed.

Theorem resp_inv_preserved st buf st' c :
  resp_inv st -> resp_parse st buf = (st', Incomplete c) -> resp_inv st'.
Proof. intros Hinv E. pose proof (resp_parse_inv st buf Hinv) as H. rewrite E in H. exact H. Qed.

(* as req_reach: the fresh value, and whatever a call that asked for more input left behind *)
Inductive resp_reach : resp_state -> Prop :=
| resp_reach_init : resp_reach resp_init
| resp_reach_step st buf st' c :
    resp_reach st -> resp_parse st buf = (st', Incomplete c) -> resp_reach st'.

Lemma resp_reach_inv st : resp_reach st -> resp_inv st.
Proof.
  induction 1 as [|st buf st' c _ IH E]; [reflexivity|]. eapply resp_inv_preserved; eassumption.
Qed.

Theorem c_resp_parse_reachable st raw :
  resp_reach st -> resp_fits st raw -> cok_roeq (c_resp_parse st raw) (resp_parse st raw).
Proof. intros R. apply c_resp_parse_ok. apply resp_reach_inv. exact R. Qed.

Theorem c_zlib_check_value_ok cmf flg :
  (cmf < 256)%N -> (flg < 256)%N -> c_zlib_check_value cmf flg = COk ((cmf * 256 + flg) mod 31)%N.
Proof.
  intros Hc Hf. unfold c_zlib_check_value, U16_MAX.
  assert (H1 : N.leb (cmf * 256) 65535 = true) by (apply N.leb_le; lia).
  assert (H2 : N.leb (cmf * 256 + flg) 65535 = true) by (apply N.leb_le; lia).
  rewrite H1, H2. reflexivity.
Qed.

Theorem c_split_at_ok c s :
  utf8_valid s = true -> (c < 128)%N -> (N.of_nat (length s) <= ISIZE_MAX)%N ->
  c_split_at c s = COk (split_at c s).
Proof.
  intros Hv Hc Hsz. unfold c_split_at, split_at. forget_sites.
  destruct (find_byte c s) as [d|] eqn:F; [|reflexivity].
  destruct (delim_ok _ _ _ Hv Hc Hsz F) as (E1 & E2 & _). rewrite E1, E2. reflexivity.
Qed.

Theorem c_content_type_split_ok ct :
  utf8_valid ct = true -> (N.of_nat (length ct) <= ISIZE_MAX)%N ->
  c_content_type_split ct = COk (match find_byte SEMI ct with
                                 | Some d => (firstn d ct, skipn (S d) ct)
                                 | None => (ct, [])
                                 end).
Proof.
  intros Hv Hsz. unfold c_content_type_split. forget_sites.
  destruct (find_byte SEMI ct) as [d|] eqn:F; [|reflexivity].
  destruct (delim_ok _ _ _ Hv semi_ascii Hsz F) as (E1 & E2 & _). rewrite E1, E2. reflexivity.
Qed.
