(* CodingGlue.v -- decode_body inverts every stack of gzip/deflate codings (C13) and never
   passes a damaged body off as content (C15), relative to stated facts about the three
   stream decoders (flate2), which are parameters. *)
From Coq Require Import String.
From Http Require Import Model.Bytes Model.Headers Model.Coding Proofs.Rewrite.

Inductive format := Gz | Zl | Raw.

Definition coding_token (f : format) : bytes :=
  match f with Gz => GZIP | Zl => DEFLATE | Raw => DEFLATE end.

Section Codecs.
  Variables gunzip inflate_raw inflate_zlib : bytes -> option bytes.
  (* encoders as relations: [enc f d e]: e is an encoding of d in format f, by any encoder,
     at any level, with any block structure and optional header fields *)
  Variable enc : format -> bytes -> bytes -> Prop.

  (* what is asked of the decoders; InflateStored.v and DeflateStream.v prove it of the model of
     flate2, the correspondence runs sample the model against flate2 itself *)
  Hypothesis gz_inverts : forall d e, enc Gz d e -> gunzip e = Some d.
  Hypothesis zl_inverts : forall d e, enc Zl d e -> inflate_zlib e = Some d /\ zlib_header e = true.
  Hypothesis raw_inverts : forall d e, enc Raw d e -> inflate_raw e = Some d /\ zlib_header e = false.

  Notation decode_body := (decode_body gunzip inflate_raw inflate_zlib).
  Notation undo := (undo gunzip inflate_raw inflate_zlib).

  (* a stack of codings applied in the listed order *)
  Inductive Enc : list format -> bytes -> bytes -> Prop :=
  | Enc_nil d : Enc [] d d
  | Enc_cons f fs d m e : enc f d m -> Enc fs m e -> Enc (f :: fs) d e.

  Lemma undo_one f d e : enc f d e -> undo [coding_token f] e = Some d.
  Proof.
    intros H. destruct f; simpl.
    - rewrite (gz_inverts _ _ H). reflexivity.
    - destruct (zl_inverts _ _ H) as [H1 H2]. unfold deflate_decode. rewrite H2, H1. reflexivity.
    - destruct (raw_inverts _ _ H) as [H1 H2]. unfold deflate_decode. rewrite H2, H1. reflexivity.
  Qed.

  Lemma undo_app l1 l2 b :
    undo (l1 ++ l2) b = match undo l1 b with Some b1 => undo l2 b1 | None => None end.
  Proof.
    revert b. induction l1 as [|c l1 IH]; intros b; [reflexivity|].
    simpl. destruct (if bytes_eqb c GZIP then gunzip b else deflate_decode inflate_raw inflate_zlib b);
      [apply IH|reflexivity].
  Qed.

  Lemma undo_stack fs d e : Enc fs d e -> undo (rev (map coding_token fs)) e = Some d.
  Proof.
    induction 1 as [d|f fs d m e Hf Hfs IH]; [reflexivity|].
    simpl. rewrite undo_app, IH. apply undo_one. exact Hf.
  Qed.

  Lemma tokens_recognised fs : forallb recognised (map coding_token fs) = true.
  Proof. induction fs as [|f fs IH]; [reflexivity|]. simpl. rewrite IH. destruct f; reflexivity. Qed.

  (* C13: whatever the spelling in the header (the crate's tokenisation lower-cases and trims),
     a body encoded by the listed stack is decoded to the original *)
  Theorem decode_inverts_stack hs fs d e :
    Enc fs d e ->
    header_tokens hs CONTENT_ENCODING = map coding_token fs ->
    exists hs', decode_body hs e = Some (hs', d).
  Proof.
    intros HE Ht.
    apply (decode_body_complete gunzip inflate_raw inflate_zlib hs e [] (map coding_token fs) d).
    - exact Ht.
    - apply tokens_recognised.
    - exact I.
    - apply undo_stack. exact HE.
  Qed.

  Definition strict_prefix (p e : bytes) : Prop := exists t, t <> [] /\ e = p ++ t.

  Hypothesis gz_truncated : forall d e p, enc Gz d e -> strict_prefix p e -> gunzip p = None.
  Hypothesis zl_truncated : forall d e p, enc Zl d e -> strict_prefix p e ->
                                           deflate_decode inflate_raw inflate_zlib p = None.
  Hypothesis raw_truncated : forall d e p, enc Raw d e -> strict_prefix p e ->
                                            deflate_decode inflate_raw inflate_zlib p = None.

  Theorem truncated_body_fails hs f d e p :
    enc f d e -> strict_prefix p e ->
    header_tokens hs CONTENT_ENCODING = [coding_token f] ->
    decode_body hs p = None.
  Proof.
    intros He Hp Ht. unfold Coding.decode_body. rewrite Ht. simpl.
    destruct f; simpl.
    - rewrite (gz_truncated _ _ _ He Hp). reflexivity.
    - rewrite (zl_truncated _ _ _ He Hp). reflexivity.
    - rewrite (raw_truncated _ _ _ He Hp). reflexivity.
  Qed.

  (* whenever the outermost decoder reports an error -- truncation, bad checksum, bad length,
     bad signature -- decode_body fails, whatever the inner layers are *)
  Theorem outer_failure_fails hs toks last body :
    header_tokens hs CONTENT_ENCODING = toks ++ [last] ->
    (bytes_eqb last GZIP = true /\ gunzip body = None) \/
    (bytes_eqb last GZIP = false /\ bytes_eqb last DEFLATE = true /\
     deflate_decode inflate_raw inflate_zlib body = None) ->
    decode_body hs body = None.
  Proof.
    intros Ht H. unfold Coding.decode_body. rewrite Ht, rev_app_distr. simpl.
    destruct H as [[G N1]|[G [D N1]]]; rewrite G; [rewrite N1; reflexivity|].
    rewrite D, N1. reflexivity.
  Qed.

  (* and a success is always the complete output of every decoder it went through: the model
     has no other way to produce a body (a partial read cannot be returned as success) *)
  Theorem success_is_full_decoder_output hs body hs' b :
    decode_body hs body = Some (hs', b) ->
    exists undone, forallb recognised undone = true /\ undo (rev undone) body = Some b.
  Proof.
    intros H. destruct (decode_body_success _ _ _ _ _ _ _ H) as [k [u [_ [Hu [_ [_ [_ [_ Hun]]]]]]]].
    exists u. split; assumption.
  Qed.
End Codecs.
