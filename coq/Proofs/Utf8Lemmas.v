(* Utf8Lemmas.v -- utf8_decode succeeds exactly on valid UTF-8, and then encoding the scalar
   values gives back the bytes (so no replacement character, BOM kept as U+FEFF).  Validity is
   followed along well-formed sequences (utf8_ind), which also gives it across concatenation:
   after a valid prefix, and before an ASCII byte.  The file opens with the three facts of N
   arithmetic and the one of list algebra that those proofs use. *)
From Coq Require Import Lia.
From Http Require Import Model.Bytes Model.Utf8 Proofs.BytesLemmas.

Lemma div_radix a b k : (b < k)%N -> ((a * k + b) / k = a)%N.
Proof.
  intros H. rewrite N.div_add_l by (intros ->; destruct b; discriminate).
  rewrite (N.div_small b k H). apply N.add_0_r.
Qed.

Lemma mod_radix a b k : (b < k)%N -> ((a * k + b) mod k = b)%N.
Proof.
  intros H. rewrite N.add_comm, N.mod_add by (intros ->; destruct b; discriminate).
  apply N.mod_small, H.
Qed.

Lemma add_sub_back k b : (k <= b)%N -> (k + (b - k) = b)%N.
Proof. intros H. rewrite N.add_comm. apply N.sub_add, H. Qed.

Lemma app_eq_before_ascii q r a x b :
  Forall (fun y => (128 <= y)%N) q -> (x < 128)%N -> q ++ r = a ++ x :: b ->
  exists a', a = q ++ a' /\ r = a' ++ x :: b.
Proof.
  intros Hq Hx. revert a. induction Hq as [|y q Hy _ IH]; intros a E.
  - exists a. split; [reflexivity|exact E].
  - destruct a as [|z a]; injection E as -> E; [lia|].
    destruct (IH a E) as (a' & -> & ->). exists a'. split; reflexivity.
Qed.

(* One well-formed byte sequence (a row of Unicode Table 3-7) and its scalar value, by base-64
   digits.  The hypotheses are the tests utf8_valid and utf8_decode make on it, in their order. *)
Inductive utf8_seq : bytes -> N -> Prop :=
| seq1 b0 : N.ltb b0 128 = true -> utf8_seq [b0] b0
| seq2 b0 b1 :
    N.ltb b0 128 = false -> between 194 223 b0 = true -> is_cont b1 = true ->
    utf8_seq [b0; b1] ((b0 - 192) * 64 + (b1 - 128))
| seq3 b0 b1 b2 :
    N.ltb b0 128 = false -> between 194 223 b0 = false -> between 224 239 b0 = true ->
    (if N.eqb b0 224 then between 160 191 b1
     else if N.eqb b0 237 then between 128 159 b1 else is_cont b1) = true ->
    is_cont b2 = true ->
    utf8_seq [b0; b1; b2] (((b0 - 224) * 64 + (b1 - 128)) * 64 + (b2 - 128))
| seq4 b0 b1 b2 b3 :
    N.ltb b0 128 = false -> between 194 223 b0 = false -> between 224 239 b0 = false ->
    between 240 244 b0 = true ->
    (if N.eqb b0 240 then between 144 191 b1
     else if N.eqb b0 244 then between 128 143 b1 else is_cont b1) = true ->
    is_cont b2 = true -> is_cont b3 = true ->
    utf8_seq [b0; b1; b2; b3] ((((b0 - 240) * 64 + (b1 - 128)) * 64 + (b2 - 128)) * 64 + (b3 - 128)).

Lemma utf8_seq_app p c r : utf8_seq p c ->
  utf8_valid (p ++ r) = utf8_valid r /\ utf8_decode (p ++ r) = option_map (cons c) (utf8_decode r).
Proof.
  intros [b0 A|b0 b1 A B2 C1|b0 b1 b2 A B2 B3 O1 C2|b0 b1 b2 b3 A B2 B3 B4 O1 C2 C3];
    cbn [app utf8_valid utf8_decode].
  - rewrite A. split; reflexivity.
  - rewrite A, B2, C1. split; reflexivity.
  - rewrite A, B2, B3, O1, C2. cbn [andb]. split; [reflexivity|do 2 f_equal; ring].
  - rewrite A, B2, B3, B4, O1, C2, C3. cbn [andb]. split; [reflexivity|do 2 f_equal; ring].
Qed.

Lemma utf8_cases s :
  s = [] \/ (exists p r, s = p ++ r /\ exists c, utf8_seq p c) \/
  (utf8_valid s = false /\ utf8_decode s = None).
Proof.
  destruct s as [|b0 t]; [left; reflexivity|right]. cbn [utf8_valid utf8_decode].
  destruct (N.ltb b0 128) eqn:A.
  { left. exists [b0], t. split; [reflexivity|eexists; apply seq1; exact A]. }
  destruct (between 194 223 b0) eqn:B2.
  { destruct t as [|b1 t]; [|destruct (is_cont b1) eqn:C1]; try (right; split; reflexivity).
    left. exists [b0; b1], t. split; [reflexivity|eexists; apply seq2; assumption]. }
  destruct (between 224 239 b0) eqn:B3.
  { destruct t as [|b1 [|b2 t]]; try (right; split; reflexivity).
    destruct (if N.eqb b0 224 then _ else _) eqn:O1; [destruct (is_cont b2) eqn:C2|];
      try (right; split; reflexivity).
    left. exists [b0; b1; b2], t. split; [reflexivity|eexists; apply seq3; assumption]. }
  destruct (between 240 244 b0) eqn:B4; [|right; split; reflexivity].
  destruct t as [|b1 [|b2 [|b3 t]]]; try (right; split; reflexivity).
  destruct (if N.eqb b0 240 then _ else _) eqn:O1;
    [destruct (is_cont b2) eqn:C2; [destruct (is_cont b3) eqn:C3|]|];
    try (right; split; reflexivity).
  left. exists [b0; b1; b2; b3], t. split; [reflexivity|eexists; apply seq4; assumption].
Qed.

Lemma utf8_ind (P : bytes -> Prop) :
  P [] ->
  (forall p c r, utf8_seq p c -> P r -> P (p ++ r)) ->
  (forall s, utf8_valid s = false -> utf8_decode s = None -> P s) ->
  forall s, P s.
Proof.
  intros Hnil Hseq Hbad s. induction s as [s IH] using (induction_ltof1 _ (@length N)).
  destruct (utf8_cases s) as [->|[(p & r & -> & c & Hp)|[V D]]].
  - exact Hnil.
  - apply (Hseq p c r Hp), IH. unfold ltof. rewrite app_length.
    destruct Hp; apply Nat.lt_add_pos_l, Nat.lt_0_succ.
  - apply Hbad; assumption.
Qed.

(* The second byte of a three- or four-byte sequence: a continuation byte, and above the overlong
   forms when the lead byte is the lowest one. *)
Lemma second_byte_range b0 b1 x lo y hi : (128 <= lo)%N -> (hi <= 191)%N ->
  (if N.eqb b0 x then between lo 191 b1 else if N.eqb b0 y then between 128 hi b1 else is_cont b1) = true ->
  (128 <= b1 <= 191)%N /\ (b0 = x -> lo <= b1)%N.
Proof.
  intros Hlo Hhi. unfold is_cont.
  destruct (N.eqb_spec b0 x); [|destruct (N.eqb b0 y)]; rewrite between_spec; lia.
Qed.

Lemma utf8_seq_tail_ge_128 p c : utf8_seq p c ->
  exists h q, p = h :: q /\ Forall (fun y => (128 <= y)%N) q.
Proof.
  intros [b0 _|b0 b1 _ _ C1|b0 b1 b2 _ _ _ O1 C2|b0 b1 b2 b3 _ _ _ _ O1 C2 C3];
    eexists _, _; (split; [reflexivity|]).
  - constructor.
  - apply between_spec in C1. repeat constructor. apply C1.
  - apply between_spec in C2. apply second_byte_range in O1 as [H1 _]; [|lia..].
    repeat constructor; [apply H1|apply C2].
  - apply between_spec in C2, C3. apply second_byte_range in O1 as [H1 _]; [|lia..].
    repeat constructor; [apply H1|apply C2|apply C3].
Qed.

Lemma encode_char_2 c : (128 <= c < 2048)%N ->
  utf8_encode_char c = [(192 + c / 64)%N; (128 + c mod 64)%N].
Proof.
  intros H. unfold utf8_encode_char.
  rewrite (proj2 (N.ltb_ge c 128)), (proj2 (N.ltb_lt c 2048)) by lia. reflexivity.
Qed.

Lemma encode_char_3 c : (2048 <= c < 65536)%N ->
  utf8_encode_char c = [(224 + c / 64 / 64)%N; (128 + (c / 64) mod 64)%N; (128 + c mod 64)%N].
Proof.
  intros H. unfold utf8_encode_char. rewrite N.div_div by discriminate.
  rewrite (proj2 (N.ltb_ge c 128)), (proj2 (N.ltb_ge c 2048)), (proj2 (N.ltb_lt c 65536)) by lia.
  reflexivity.
Qed.

Lemma encode_char_4 c : (65536 <= c)%N ->
  utf8_encode_char c = [(240 + c / 64 / 64 / 64)%N; (128 + (c / 64 / 64) mod 64)%N;
                        (128 + (c / 64) mod 64)%N; (128 + c mod 64)%N].
Proof.
  intros H. unfold utf8_encode_char. rewrite !N.div_div by discriminate.
  rewrite (proj2 (N.ltb_ge c 128)), (proj2 (N.ltb_ge c 2048)), (proj2 (N.ltb_ge c 65536)) by lia.
  reflexivity.
Qed.

(* Each case: the scalar value lies in the range of its length; there utf8_encode_char reads off
   the base-64 digits. *)
Lemma utf8_seq_encode p c : utf8_seq p c -> utf8_encode_char c = p.
Proof.
  intros [b0 A|b0 b1 _ B2 C1|b0 b1 b2 _ _ B3 O1 C2|b0 b1 b2 b3 _ _ _ B4 O1 C2 C3].
  - unfold utf8_encode_char. rewrite A. reflexivity.
  - apply between_spec in B2, C1. rewrite encode_char_2 by lia.
    rewrite div_radix, mod_radix, !add_sub_back by lia. reflexivity.
  - apply between_spec in B3, C2. apply second_byte_range in O1 as [H1 Hov]; [|lia..].
    rewrite encode_char_3 by lia.
    rewrite !div_radix, !mod_radix, !add_sub_back by lia. reflexivity.
  - apply between_spec in B4, C2, C3. apply second_byte_range in O1 as [H1 Hov]; [|lia..].
    rewrite encode_char_4 by lia.
    rewrite !div_radix, !mod_radix, !add_sub_back by lia. reflexivity.
Qed.

Lemma utf8_decode_spec s :
  match utf8_decode s with
  | Some t => utf8_valid s = true /\ utf8_encode t = s
  | None => utf8_valid s = false
  end.
Proof.
  induction s as [|p c r Hp IH|s V D] using utf8_ind.
  - split; reflexivity.
  - destruct (utf8_seq_app p c r Hp) as [-> ->].
    destruct (utf8_decode r) as [t|]; [|exact IH]. destruct IH as [V E].
    split; [exact V|]. cbn [utf8_encode flat_map]. fold (utf8_encode t).
    rewrite E, (utf8_seq_encode p c Hp). reflexivity.
  - rewrite D. exact V.
Qed.

Theorem utf8_decode_iff_valid s : utf8_valid s = true <-> exists t, utf8_decode s = Some t.
Proof.
  pose proof (utf8_decode_spec s) as H. destruct (utf8_decode s) as [t|].
  - split; [eauto|intros _; apply H].
  - rewrite H. split; [discriminate|intros [t Ht]; discriminate].
Qed.

Theorem utf8_decode_roundtrip s t : utf8_decode s = Some t -> utf8_encode t = s.
Proof. intros H. pose proof (utf8_decode_spec s) as S. rewrite H in S. apply S. Qed.

Lemma utf8_valid_app a b : utf8_valid a = true -> utf8_valid (a ++ b) = utf8_valid b.
Proof.
  induction a as [|p c r Hp IH|a V _] using utf8_ind; intros Ha.
  - reflexivity.
  - rewrite (proj1 (utf8_seq_app p c r Hp)) in Ha.
    rewrite <- app_assoc, (proj1 (utf8_seq_app p c (r ++ b) Hp)). exact (IH Ha).
  - rewrite V in Ha. discriminate.
Qed.

(* The first sequence of a ++ x :: b lies inside a, since x can only be the first byte of one. *)
Lemma utf8_valid_split a x b : (x < 128)%N -> utf8_valid (a ++ x :: b) = true -> utf8_valid a = true.
Proof.
  intros Hx. remember (a ++ x :: b : bytes) as s eqn:E. revert a E.
  induction s as [|p c r Hp IH|s V _] using utf8_ind; intros a E Hs.
  - destruct a; discriminate E.
  - destruct a as [|h a]; [reflexivity|].
    rewrite (proj1 (utf8_seq_app p c r Hp)) in Hs.
    destruct (utf8_seq_tail_ge_128 p c Hp) as (h' & q & -> & Hq). injection E as -> E.
    destruct (app_eq_before_ascii q r a x b Hq Hx E) as (a' & -> & ->).
    rewrite app_comm_cons, (proj1 (utf8_seq_app (h :: q) c a' Hp)). exact (IH a' eq_refl Hs).
  - rewrite V in Hs. discriminate.
Qed.
