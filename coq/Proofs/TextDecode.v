(* TextDecode.v -- decode_body_as_text honours Content-Type and charset (C16). *)
From Coq Require Import Lia.
From Http Require Import Model.Bytes Model.Utf8 Model.Headers Model.Coding
     Proofs.BytesLemmas Proofs.Utf8Lemmas.

(* a Content-Type value is split at its first ';': the media type before it, the parameters
   after it *)
Definition type_subtype (ct : bytes) : bytes :=
  match find_byte SEMI ct with Some d => firstn d ct | None => ct end.
Definition parameters (ct : bytes) : bytes :=
  match find_byte SEMI ct with Some d => skipn (S d) ct | None => [] end.

Lemma content_type_charset_text ct cs :
  content_type_charset ct = Some cs ->
  exists ty sub, split_at SLASH (type_subtype ct) = Some (ty, sub) /\ eq_ignore_case ty TEXT = true
                 /\ cs = match find_charset (split_on SEMI (parameters ct)) with
                         | Some c => c | None => ISO_8859_1 end.
Proof.
  unfold content_type_charset, type_subtype, parameters.
  destruct (find_byte SEMI ct) as [d|].
  - destruct (split_at SLASH (firstn d ct)) as [[ty sub]|]; [|discriminate].
    destruct (eq_ignore_case ty TEXT) eqn:E; [|discriminate].
    intros H. inversion H. exists ty, sub. repeat split. exact E.
  - destruct (split_at SLASH ct) as [[ty sub]|]; [|discriminate].
    destruct (eq_ignore_case ty TEXT) eqn:E; [|discriminate].
    intros H. inversion H. exists ty, sub. repeat split. exact E.
Qed.

Section Enc.
  Variable enc : Type.
  Variable for_label : bytes -> option enc.
  Variable enc_decode : enc -> bytes -> option (list N).
  Notation decode_text := (decode_text enc for_label enc_decode).

  (* text is returned only for a text type, and it is what the encoding selected by the
     charset parameter (default ISO-8859-1) decodes, without any other source of characters *)
  Theorem decode_text_some hs body t :
    decode_text hs body = Some t ->
    exists ct ty sub cs e,
      header_value hs CONTENT_TYPE = Some ct /\
      split_at SLASH (type_subtype ct) = Some (ty, sub) /\ eq_ignore_case ty TEXT = true /\
      cs = match find_charset (split_on SEMI (parameters ct)) with
           | Some c => c | None => ISO_8859_1 end /\
      for_label (utf8_encode cs) = Some e /\ enc_decode e body = Some t.
  Proof.
    unfold Coding.decode_text.
    destruct (header_value hs CONTENT_TYPE) as [ct|]; [|discriminate].
    destruct (content_type_charset ct) as [cs|] eqn:C; [|discriminate].
    destruct (for_label (utf8_encode cs)) as [e|] eqn:L; [|discriminate].
    intros H. destruct (content_type_charset_text _ _ C) as [ty [sub [H1 [H2 H3]]]].
    exists ct, ty, sub, cs, e. repeat split; assumption.
  Qed.

  Theorem decode_text_none_without_type hs body :
    header_value hs CONTENT_TYPE = None -> decode_text hs body = None.
  Proof. intros H. unfold Coding.decode_text. rewrite H. reflexivity. Qed.

  Theorem decode_text_none_unknown_charset hs body ct cs :
    header_value hs CONTENT_TYPE = Some ct -> content_type_charset ct = Some cs ->
    for_label (utf8_encode cs) = None -> decode_text hs body = None.
  Proof. intros H1 H2 H3. unfold Coding.decode_text. rewrite H1, H2, H3. reflexivity. Qed.

  Theorem decode_text_none_not_text hs body ct :
    header_value hs CONTENT_TYPE = Some ct -> content_type_charset ct = None ->
    decode_text hs body = None.
  Proof. intros H1 H2. unfold Coding.decode_text. rewrite H1, H2. reflexivity. Qed.
End Enc.

(* the UTF-8 decoder: text exactly when the body is valid UTF-8, and then the text's bytes
   are the body (never a replacement character; a BOM stays as U+FEFF) *)
Theorem utf8_text_exact body :
  (utf8_valid body = true <-> exists t, utf8_decode body = Some t) /\
  (forall t, utf8_decode body = Some t -> utf8_encode t = body).
Proof. split; [apply utf8_decode_iff_valid|apply utf8_decode_roundtrip]. Qed.

(* ISO-8859-1 as encoding_rs implements it (windows-1252): total, one character per byte,
   ASCII unchanged *)
Theorem w1252_total body :
  length (w1252_decode body) = length body /\
  forall i b, nth_error body i = Some b -> (b < 128)%N -> nth_error (w1252_decode body) i = Some b.
Proof.
  unfold w1252_decode. split; [apply map_length|].
  intros i b H Hb. rewrite nth_error_map, H. simpl. f_equal.
  unfold w1252_char. destruct (between 128 159 b) eqn:E; [|reflexivity].
  apply between_spec in E. lia.
Qed.
