(* InflateWf.v -- input states keep their shape (wf): fewer than 8 pending bits of the current byte,
   and pending bytes below 256; every decoder keeps it, being built from operations that do.
   Also: byte_bits is injective on bytes, so a bit view pins the bytes. *)
From Coq Require Import List NArith Arith Lia.
From Http Require Import Model.Bytes Model.Inflate Proofs.InflateLocal Proofs.HuffmanCanon.
Import ListNotations.

Definition bytes_ok (bs : bytes) : Prop := Forall (fun b => (b < 256)%N) bs.
Definition wf (s : istate) : Prop := length (fst s) < 8 /\ bytes_ok (snd s).

Definition wfp {A} (p : istate -> res A) : Prop :=
  forall s a s', p s = Ok a s' -> wf s -> wf s'.

Lemma byte_bits_len b : length (byte_bits b) = 8.
Proof. reflexivity. Qed.

Lemma wfp_getbit : wfp getbit.
Proof.
  intros [cur rest] b s' H [Hl Hb]. cbn [fst snd] in *. destruct cur as [|c cur'].
  - destruct rest as [|byte rest']; [discriminate|]. cbn [getbit] in H.
    destruct (byte_bits_cons byte) as [x [l E]]. rewrite E in H. inversion H; subst.
    split; cbn [fst snd].
    + pose proof (byte_bits_len byte) as L. rewrite E in L. simpl in L. lia.
    + inversion Hb; assumption.
  - cbn [getbit] in H. inversion H; subst. split; cbn [fst snd]; [simpl in Hl; lia | exact Hb].
Qed.

(* wfp is kept by the operations the decoders are built from, so every decoder has it *)
Lemma wfp_closed : closed (fun A p _ => @wfp A p).
Proof.
  split.
  - intros A p p' q q' E _ H s a s' Hp. rewrite E in Hp. exact (H _ _ _ Hp).
  - intros A a s a' s' H Hw. inversion H; subst. exact Hw.
  - intros A s a s' H. discriminate.
  - intros A q s a s' H. discriminate.
  - intros A B p _ f _ Hp Hf s b s' H Hw. unfold bind in H.
    destruct (p s) as [a s1| |] eqn:E; try discriminate.
    exact (Hf a _ _ _ H (Hp _ _ _ E Hw)).
  - exact wfp_getbit.
  - intros H8 [[|x cur] rest] a s' H Hw; [|exact (H8 _ _ _ H Hw)].
    destruct rest as [|b rest']; [discriminate|]. inversion H; subst.
    destruct Hw as [Hl Hb]. split; [exact Hl | inversion Hb; assumption].
  - intros A a s a' s' H [Hl Hb]. inversion H; subst. split; [simpl; lia | exact Hb].
Qed.

Lemma byte_bits_aux_value n : forall b, (b < 2 ^ N.of_nat n)%N ->
  b = fold_right (fun (x : bool) acc => (bit_val x + 2 * acc)%N) 0%N (byte_bits_aux n b).
Proof.
  induction n as [|n IH]; intros b H.
  - apply N.lt_1_r. exact H.
  - cbn [byte_bits_aux fold_right]. rewrite <- IH.
    + rewrite (N.div2_odd b) at 1. destruct (N.odd b); cbn [bit_val N.b2n]; lia.
    + rewrite Nat2N.inj_succ, N.pow_succ_r' in H. rewrite N.div2_div.
      apply N.div_lt_upper_bound; [discriminate | exact H].
Qed.

Lemma byte_bits_value b : (b < 256)%N ->
  b = fold_right (fun (x : bool) acc => (bit_val x + 2 * acc)%N) 0%N (byte_bits b).
Proof. exact (byte_bits_aux_value 8 b). Qed.

Lemma byte_bits_inj a b : (a < 256)%N -> (b < 256)%N -> byte_bits a = byte_bits b -> a = b.
Proof. intros Ha Hb E. rewrite (byte_bits_value a Ha), (byte_bits_value b Hb), E. reflexivity. Qed.

Lemma app_same_length {A} : forall (l p a b : list A),
    l ++ a = p ++ b -> length l = length p -> l = p /\ a = b.
Proof.
  induction l as [|x l IH]; intros p a b H E; destruct p as [|y p]; try discriminate.
  - split; [reflexivity | exact H].
  - injection H as -> H. injection E as E. destruct (IH p a b H E) as [-> ->]. split; reflexivity.
Qed.

Lemma bytes_of_bits : forall (y x : bytes) (z : list bool),
    flat_map byte_bits x = flat_map byte_bits y ++ z ->
    bytes_ok x -> bytes_ok y ->
    exists r, x = y ++ r /\ flat_map byte_bits r = z.
Proof.
  induction y as [|b y IH]; intros x z H Hx Hy.
  - exists x. split; [reflexivity | exact H].
  - inversion Hy as [|? ? Hb Hy']; subst. destruct x as [|a x'].
    + cbn [flat_map app] in H. destruct (byte_bits_cons b) as [q [l E]]. rewrite E in H. discriminate.
    + inversion Hx as [|? ? Ha Hx']; subst. cbn [flat_map] in H. rewrite <- app_assoc in H.
      apply app_same_length in H; [|reflexivity]. destruct H as [E1 E2].
      apply (byte_bits_inj a b Ha Hb) in E1. subst a.
      destruct (IH x' z E2 Hx' Hy') as [r [Er Ez]]. exists r. split; [rewrite Er; reflexivity | exact Ez].
Qed.

Lemma flat_bits_length (e : bytes) : length (flat_map byte_bits e) = 8 * length e.
Proof. induction e as [|x e IH]; [reflexivity|]. cbn [flat_map]. rewrite app_length, IH, byte_bits_len. simpl. lia. Qed.

(* a well-formed state whose bit view starts with fewer than 8 bits followed by a whole number of
   bytes: those bits are exactly the rest of the current byte *)
Lemma state_of_whole_bytes s pad z :
  wf s -> length pad < 8 -> length z mod 8 = 0 -> bits_of s = pad ++ z ->
  fst s = pad /\ flat_map byte_bits (snd s) = z.
Proof.
  intros [Hl Hb] Hp Hz H. unfold bits_of in H.
  pose proof (f_equal (@length bool) H) as HL. rewrite !app_length, flat_bits_length in HL.
  pose proof (Nat.div_mod (length z) 8 ltac:(discriminate)) as D. rewrite Hz in D.
  apply app_same_length in H; [exact H | lia].
Qed.

Lemma state_of_bits s pad (bs : bytes) :
  wf s -> length pad < 8 -> bits_of s = pad ++ flat_map byte_bits bs ->
  fst s = pad /\ flat_map byte_bits (snd s) = flat_map byte_bits bs.
Proof.
  intros W Hp. apply (state_of_whole_bytes s pad _ W Hp).
  rewrite flat_bits_length, Nat.mul_comm. apply Nat.mod_mul. discriminate.
Qed.
