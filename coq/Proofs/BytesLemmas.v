(* BytesLemmas.v -- facts about searching and slicing byte lists: find_crlf and find_byte under
   append and prefix, a buffer with a CRLF as [l ++ CRLF ++ rest] with [l] a line, and trimming at
   both ends by a test (str::trim, the charset-label trim): it leaves no such byte at either edge,
   and a string with none there is left alone.  Also the list lemmas (firstn, skipn, forallb,
   Forall) and the small facts about [between] and [bytes_eqb] that the other files share. *)
From Coq Require Import Lia.
From Http Require Import Model.Bytes Spec.ChunkedGrammar.

Lemma between_spec lo hi b : between lo hi b = true <-> (lo <= b /\ b <= hi)%N.
Proof. unfold between. rewrite andb_true_iff, !N.leb_le. tauto. Qed.

Lemma between_false lo hi b : between lo hi b = false <-> (b < lo \/ hi < b)%N.
Proof. unfold between. rewrite andb_false_iff, !N.leb_gt. tauto. Qed.

Lemma find_crlf_cons2 a b t :
  find_crlf (a :: b :: t) =
  if (N.eqb a CR && N.eqb b LF)%bool then Some 0 else option_map S (find_crlf (b :: t)).
Proof. reflexivity. Qed.

Lemma find_crlf_nil : find_crlf [] = None.
Proof. reflexivity. Qed.

Lemma find_crlf_single a : find_crlf [a] = None.
Proof. reflexivity. Qed.

Lemma find_crlf_app s u i : find_crlf s = Some i -> find_crlf (s ++ u) = Some i.
Proof.
  revert i. induction s as [|a s IH]; intros i H; [discriminate|].
  destruct s as [|b t]; [discriminate|].
  change ((a :: b :: t) ++ u) with (a :: b :: (t ++ u)).
  rewrite find_crlf_cons2 in *.
  destruct (N.eqb a CR && N.eqb b LF)%bool; [exact H|].
  destruct (find_crlf (b :: t)) as [j|] eqn:E; [|discriminate].
  change (b :: t ++ u) with ((b :: t) ++ u). rewrite (IH j eq_refl). exact H.
Qed.

Lemma find_crlf_at s i :
  find_crlf s = Some i -> skipn i s = CR :: LF :: skipn (i + 2) s.
Proof.
  revert i. induction s as [|a s IH]; intros i H; [discriminate|].
  destruct s as [|b t]; [discriminate|].
  rewrite find_crlf_cons2 in H.
  destruct (N.eqb a CR && N.eqb b LF)%bool eqn:E.
  - inversion H; subst. apply andb_prop in E as [Ea Eb].
    apply N.eqb_eq in Ea, Eb. subst. reflexivity.
  - destruct (find_crlf (b :: t)) as [j|] eqn:F; [|discriminate].
    simpl in H. inversion H; subst. specialize (IH j eq_refl).
    change (skipn (S j) (a :: b :: t)) with (skipn j (b :: t)).
    rewrite IH. reflexivity.
Qed.

Lemma find_crlf_bound s i : find_crlf s = Some i -> i + 2 <= length s.
Proof.
  intros H. apply find_crlf_at, (f_equal (@length N)) in H.
  rewrite skipn_length in H. simpl in H. lia.
Qed.

Lemma find_crlf_app_none s u i :
  find_crlf s = None -> find_crlf (s ++ u) = Some i -> length s <= i + 1.
Proof.
  revert i. induction s as [|a s IH]; intros i H1 H2; [simpl; lia|].
  destruct s as [|b t].
  - simpl. lia.
  - change ((a :: b :: t) ++ u) with (a :: b :: (t ++ u)) in H2.
    rewrite find_crlf_cons2 in H1, H2.
    destruct (N.eqb a CR && N.eqb b LF)%bool; [discriminate|].
    destruct (find_crlf (b :: t)) eqn:E1; [discriminate|].
    change (b :: t ++ u) with ((b :: t) ++ u) in H2.
    destruct (find_crlf ((b :: t) ++ u)) as [j|] eqn:E2; [|discriminate].
    simpl in H2. inversion H2; subst.
    specialize (IH j eq_refl eq_refl). simpl in *. lia.
Qed.

Definition ends_cr (s : bytes) : bool :=
  match rev s with b :: _ => N.eqb b CR | [] => false end.
Definition starts_lf (u : bytes) : bool :=
  match u with b :: _ => N.eqb b LF | [] => false end.

Lemma ends_cr_app_single s b : ends_cr (s ++ [b]) = N.eqb b CR.
Proof. unfold ends_cr. rewrite rev_app_distr. reflexivity. Qed.

Lemma firstn_app_le {A} (n : nat) (s u : list A) :
  n <= length s -> firstn n (s ++ u) = firstn n s.
Proof.
  intros H. rewrite firstn_app. replace (n - length s) with 0 by lia.
  simpl. apply app_nil_r.
Qed.

Lemma skipn_app_le {A} (n : nat) (s u : list A) :
  n <= length s -> skipn n (s ++ u) = skipn n s ++ u.
Proof.
  intros H. rewrite skipn_app. replace (n - length s) with 0 by lia. reflexivity.
Qed.

(* when s does not end with CR, or u does not start with LF, the CRLF lies inside u *)
Lemma find_crlf_app_none_strict s u i :
  find_crlf s = None -> (ends_cr s && starts_lf u)%bool = false ->
  find_crlf (s ++ u) = Some i -> length s <= i.
Proof.
  intros H1 Hs H2. pose proof (find_crlf_app_none s u i H1 H2) as B.
  destruct (Nat.eq_dec (length s) (i + 1)) as [L|L]; [exfalso|lia].
  (* otherwise the CR is the last byte of s and the LF the first of u *)
  pose proof (find_crlf_at _ _ H2) as A. rewrite skipn_app_le in A by lia.
  rewrite <- (firstn_skipn i s) in Hs.
  assert (K : length (skipn i s) = 1) by (rewrite skipn_length; lia).
  destruct (skipn i s) as [|x [|y t]]; try discriminate K.
  destruct u as [|z u']; [discriminate A|]. injection A as -> -> _.
  rewrite ends_cr_app_single in Hs. discriminate Hs.
Qed.

Lemma find_crlf_app_both_none m u :
  find_crlf m = None -> find_crlf u = None -> starts_lf u = false -> find_crlf (m ++ u) = None.
Proof.
  intros Hm Hu Hs. induction m as [|a m IH]; [exact Hu|].
  destruct m as [|b t].
  - cbn [app]. destruct u as [|c w]; [reflexivity|]. rewrite find_crlf_cons2.
    cbn [starts_lf] in Hs. rewrite Hs. rewrite Bool.andb_false_r. rewrite Hu. reflexivity.
  - rewrite find_crlf_cons2 in Hm. change ((a :: b :: t) ++ u) with (a :: b :: (t ++ u)).
    rewrite find_crlf_cons2. destruct (N.eqb a CR && N.eqb b LF)%bool; [discriminate|].
    destruct (find_crlf (b :: t)) eqn:E; [discriminate|].
    change (b :: t ++ u) with ((b :: t) ++ u). rewrite (IH eq_refl). reflexivity.
Qed.

Lemma find_crlf_prefix_none a b : find_crlf (a ++ b) = None -> find_crlf a = None.
Proof.
  intros H. destruct (find_crlf a) as [i|] eqn:E; [|reflexivity].
  rewrite (find_crlf_app a b i E) in H. discriminate.
Qed.

Lemma find_byte_bound c s i : find_byte c s = Some i -> i < length s.
Proof.
  revert i. induction s as [|a s IH]; intros i H; [discriminate|].
  simpl in H. destruct (N.eqb a c).
  - inversion H. simpl. lia.
  - destruct (find_byte c s) as [j|]; [|discriminate]. simpl in H. inversion H.
    specialize (IH j eq_refl). simpl. lia.
Qed.

Lemma skipn_skipn' {A} (a b : nat) (l : list A) : skipn a (skipn b l) = skipn (b + a) l.
Proof.
  revert l. induction b as [|b IH]; intros l; [reflexivity|].
  destruct l as [|x l]; [rewrite !skipn_nil; reflexivity|apply IH].
Qed.

Lemma find_crlf_firstn s i n :
  find_crlf s = Some i -> i + 2 <= n -> find_crlf (firstn n s) = Some i.
Proof.
  revert i n. induction s as [|a s IH]; intros i n H Hn; [discriminate|].
  destruct s as [|b t]; [discriminate|].
  rewrite find_crlf_cons2 in H.
  destruct n as [|[|n]]; try lia.
  change (firstn (S (S n)) (a :: b :: t)) with (a :: b :: firstn n t).
  rewrite find_crlf_cons2.
  destruct (N.eqb a CR && N.eqb b LF)%bool; [exact H|].
  destruct (find_crlf (b :: t)) as [j|] eqn:E; [|discriminate].
  simpl in H. inversion H; subst.
  change (b :: firstn n t) with (firstn (S n) (b :: t)).
  rewrite (IH j (S n) eq_refl) by lia. reflexivity.
Qed.

Lemma firstn_plus {A} (n m : nat) (l : list A) :
  firstn (n + m) l = firstn n l ++ firstn m (skipn n l).
Proof.
  revert l. induction n as [|n IH]; intros l; [reflexivity|].
  destruct l as [|x l]; [simpl; rewrite firstn_nil; reflexivity|].
  simpl. f_equal. apply IH.
Qed.

Lemma skipn_app_cons {A} (a : list A) (x : A) (b : list A) : skipn (S (length a)) (a ++ x :: b) = b.
Proof. induction a as [|y a IH]; [reflexivity|]. simpl. exact IH. Qed.

Lemma skipn_app_exact {A} (a b : list A) : skipn (length a) (a ++ b) = b.
Proof. induction a as [|y a IH]; [reflexivity|]. simpl. exact IH. Qed.

Lemma firstn_app_exact {A} (a b : list A) : firstn (length a) (a ++ b) = a.
Proof. induction a as [|y a IH]; [reflexivity|]. simpl. f_equal. exact IH. Qed.

Lemma skipn_line (l rest : bytes) : skipn (length l + 2) (l ++ CRLF ++ rest) = rest.
Proof. induction l as [|a l IH]; [reflexivity|exact IH]. Qed.

Lemma line_length (l rest : bytes) : length (l ++ CRLF ++ rest) = length l + 2 + length rest.
Proof. rewrite !app_length. apply Nat.add_assoc. Qed.

Lemma ends_cr_app s r : r <> [] -> ends_cr (s ++ r) = ends_cr r.
Proof.
  intros Hr. unfold ends_cr. rewrite rev_app_distr. destruct (rev r) as [|x t] eqn:R; [|reflexivity].
  apply (f_equal (@rev N)) in R. rewrite rev_involutive in R. contradiction.
Qed.

Lemma forallb_imp {A} (p q : A -> bool) l :
  (forall x, p x = true -> q x = true) -> forallb p l = true -> forallb q l = true.
Proof. intros H. rewrite !forallb_forall. intros Hp x Hx. apply H, Hp, Hx. Qed.

Lemma bytes_eqb_false a b : bytes_eqb a b = false <-> a <> b.
Proof.
  revert b. induction a as [|x a IH]; intros [|y b]; cbn [bytes_eqb]; try (split; congruence).
  destruct (N.eqb_spec x y) as [->|Hxy]; cbn [andb]; [|split; congruence].
  rewrite IH. split; congruence.
Qed.

Lemma find_byte_first c s k :
  find_byte c s = Some k ->
  s = firstn k s ++ c :: skipn (S k) s /\ find_byte c (firstn k s) = None.
Proof.
  revert k. induction s as [|a s IH]; intros k H; [discriminate|].
  cbn [find_byte] in H. destruct (N.eqb a c) eqn:E.
  - inversion H; subst. apply N.eqb_eq in E. subst. split; reflexivity.
  - destruct (find_byte c s) as [j|]; [|discriminate]. inversion H; subst.
    destruct (IH j eq_refl) as [Hs Hn]. cbn [firstn skipn app find_byte].
    rewrite E, Hn. split; [f_equal; exact Hs|reflexivity].
Qed.

Lemma find_byte_word c s k :
  find_byte c s = Some k ->
  exists m r, s = m ++ c :: r /\ find_byte c m = None /\ k = length m.
Proof.
  intros F. exists (firstn k s), (skipn (S k) s). destruct (find_byte_first _ _ _ F) as [Hs Hn].
  pose proof (find_byte_bound _ _ _ F). rewrite firstn_length_le by lia. auto.
Qed.

Lemma find_byte_forallb c (p : N -> bool) s :
  p c = false -> forallb p s = true -> find_byte c s = None.
Proof.
  intros Hc. induction s as [|a s IH]; [reflexivity|]. cbn [forallb find_byte]. intros H.
  apply andb_prop in H as [Ha Hs]. destruct (N.eqb_spec a c) as [->|_]; [congruence|].
  rewrite (IH Hs). reflexivity.
Qed.

Lemma find_byte_app_none c a b : find_byte c a = None ->
  find_byte c (a ++ c :: b) = Some (length a).
Proof.
  induction a as [|x a IH]; intros H.
  - simpl. rewrite N.eqb_refl. reflexivity.
  - simpl in *. destruct (N.eqb x c); [discriminate|].
    destruct (find_byte c a); [discriminate|]. rewrite (IH eq_refl). reflexivity.
Qed.

Lemma is_line_find l rest : is_line l -> find_crlf (l ++ CRLF ++ rest) = Some (length l).
Proof. intros H. rewrite app_assoc. apply find_crlf_app. exact H. Qed.

Lemma line_split s lt :
  find_crlf s = Some lt -> s = firstn lt s ++ CRLF ++ skipn (lt + 2) s.
Proof.
  intros E. rewrite <- (firstn_skipn lt s) at 1. rewrite (find_crlf_at _ _ E). reflexivity.
Qed.

Lemma is_line_firstn s lt : find_crlf s = Some lt -> is_line (firstn lt s).
Proof.
  intros E. unfold is_line.
  pose proof (find_crlf_bound _ _ E) as B.
  pose proof (find_crlf_firstn s lt (lt + 2) E (le_n _)) as F.
  rewrite firstn_plus in F. rewrite (find_crlf_at _ _ E) in F. cbn [firstn] in F.
  rewrite firstn_length. rewrite Nat.min_l by lia. exact F.
Qed.

Lemma find_crlf_line s lt :
  find_crlf s = Some lt -> exists l rest, s = l ++ CRLF ++ rest /\ is_line l.
Proof.
  intros E. exists (firstn lt s), (skipn (lt + 2) s).
  split; [apply line_split|apply is_line_firstn]; exact E.
Qed.

Lemma line_cases s :
  find_crlf s = None \/ exists l rest, s = l ++ CRLF ++ rest /\ is_line l.
Proof.
  destruct (find_crlf s) as [e|] eqn:E; [right|left; reflexivity].
  exact (find_crlf_line s e E).
Qed.

Lemma firstn_line_plus line rest k :
  firstn (length line + 2 + k) (line ++ CRLF ++ rest) = line ++ CRLF ++ firstn k rest.
Proof.
  rewrite app_assoc. replace (length line + 2) with (length (line ++ CRLF)) by apply app_length.
  rewrite firstn_app_2. apply app_assoc_reverse.
Qed.

Lemma vchar_not_cr b : is_vchar b = true -> N.eqb b CR = false.
Proof.
  intros H. destruct (N.eqb b CR) eqn:E; [|reflexivity]. apply N.eqb_eq in E. subst. discriminate.
Qed.

Lemma find_crlf_vchars_app a b :
  forallb is_vchar a = true -> find_crlf (a ++ b) = option_map (Nat.add (length a)) (find_crlf b).
Proof.
  induction a as [|x a IH]; intros H; [cbn [app]; destruct (find_crlf b); reflexivity|].
  cbn [forallb] in H. apply andb_prop in H as [Hx Ha].
  cbn [app]. destruct (a ++ b) as [|y t] eqn:E.
  - destruct a; [|discriminate]. cbn in E. subst b. reflexivity.
  - rewrite find_crlf_cons2, (vchar_not_cr x Hx), (IH Ha). destruct (find_crlf b); reflexivity.
Qed.

Lemma vchars_find_crlf s rest :
  forallb is_vchar s = true -> find_crlf (s ++ CRLF ++ rest) = Some (length s).
Proof. intros H. rewrite (find_crlf_vchars_app _ _ H). cbn. f_equal. apply Nat.add_0_r. Qed.

Lemma find_crlf_app_crlf s :
  find_crlf (s ++ CRLF) = match find_crlf s with Some i => Some i | None => Some (length s) end.
Proof.
  induction s as [|a s IH]; [reflexivity|]. destruct s as [|b t].
  - cbn. destruct (N.eqb a CR); reflexivity.
  - change ((a :: b :: t) ++ CRLF) with (a :: b :: (t ++ CRLF)). rewrite !find_crlf_cons2.
    destruct (N.eqb a CR && N.eqb b LF)%bool; [reflexivity|].
    change (b :: t ++ CRLF) with ((b :: t) ++ CRLF). rewrite IH.
    destruct (find_crlf (b :: t)); reflexivity.
Qed.

Lemma is_line_iff s : is_line s <-> find_crlf s = None.
Proof.
  unfold is_line. rewrite find_crlf_app_crlf. destruct (find_crlf s) as [i|] eqn:E.
  - pose proof (find_crlf_bound _ _ E). split; [intros H'; inversion H'; lia|discriminate].
  - split; reflexivity.
Qed.

Lemma app_split {A} k (l : list A) : k <= length l -> exists d r, l = d ++ r /\ length d = k.
Proof.
  intros H. exists (firstn k l), (skipn k l).
  split; [symmetry; apply firstn_skipn|apply firstn_length_le; exact H].
Qed.

Lemma skipn_resumed {A} c k (a b : list A) :
  c <= length a -> skipn (c + k) (a ++ b) = skipn k (skipn c a ++ b).
Proof. intros H. rewrite <- (skipn_app_le c a b H). symmetry. apply skipn_skipn'. Qed.

Lemma Forall_removelast' {A} (P : A -> Prop) l : Forall P l -> Forall P (removelast l).
Proof.
  induction 1 as [|a l Ha Hl IH]; [constructor|]. cbn [removelast].
  destruct l; [constructor|constructor; assumption].
Qed.

Lemma Forall_drop_last_empty (P : bytes -> Prop) l : Forall P l -> Forall P (drop_last_empty l).
Proof.
  induction 1 as [|p l Hp Hl IH]; [constructor|].
  destruct p, l; cbn [drop_last_empty] in *; constructor; assumption.
Qed.

Lemma drop_while_idem p s : drop_while p (drop_while p s) = drop_while p s.
Proof.
  induction s as [|a s IH]; [reflexivity|]. simpl. destruct (p a) eqn:E; [exact IH|].
  simpl. rewrite E. reflexivity.
Qed.

Lemma drop_while_head p s a t : drop_while p s = a :: t -> p a = false.
Proof.
  induction s as [|b s IH]; [discriminate|]. simpl. destruct (p b) eqn:E; [exact IH|].
  intros H. inversion H; subst. exact E.
Qed.

Lemma drop_while_suffix p s : exists pre, s = pre ++ drop_while p s.
Proof.
  induction s as [|a s [pre IH]]; [exists []; reflexivity|].
  simpl. destruct (p a); [exists (a :: pre); simpl; f_equal; exact IH|exists []; reflexivity].
Qed.

Lemma drop_while_noop p s : match s with a :: _ => p a = false | [] => True end -> drop_while p s = s.
Proof. destruct s as [|a s]; [reflexivity|]. simpl. intros H. rewrite H. reflexivity. Qed.

Lemma forallb_drop_while (q p : N -> bool) s : forallb q s = true -> forallb q (drop_while p s) = true.
Proof.
  induction s as [|a s IH]; [reflexivity|]. simpl. intros H. apply andb_prop in H as [Ha Hs].
  destruct (p a); [apply IH; exact Hs|]. simpl. rewrite Ha, Hs. reflexivity.
Qed.

Lemma forallb_rev {A} (q : A -> bool) s : forallb q (rev s) = forallb q s.
Proof.
  induction s as [|a s IH]; [reflexivity|]. simpl. rewrite forallb_app, IH. simpl.
  rewrite andb_true_r. apply andb_comm.
Qed.

Lemma forallb_trim (q : N -> bool) s : forallb q s = true -> forallb q (trim s) = true.
Proof.
  intros H. unfold trim, trim_end, trim_start.
  rewrite forallb_rev. apply forallb_drop_while. rewrite forallb_rev.
  apply forallb_drop_while. exact H.
Qed.

(* [trim] is [trim_by is_ws], [label_trim] is [trim_by is_label_ws], both by unfolding *)
Definition trim_by (p : N -> bool) (s : bytes) : bytes := rev (drop_while p (rev (drop_while p s))).

Definition edge_ok (p : N -> bool) (s : bytes) : Prop :=
  match s with a :: _ => p a = false | [] => True end /\
  match rev s with a :: _ => p a = false | [] => True end.

Lemma trim_by_noop p s : edge_ok p s -> trim_by p s = s.
Proof.
  intros [H1 H2]. unfold trim_by.
  rewrite (drop_while_noop p s H1), (drop_while_noop p (rev s) H2). apply rev_involutive.
Qed.

(* trimming the back of a front-trimmed string leaves a prefix of it, which still begins with a
   byte that fails the test *)
Lemma trim_by_edges p s : edge_ok p (trim_by p s).
Proof.
  unfold trim_by. set (y := drop_while p s). split.
  - destruct (drop_while_suffix p (rev y)) as [pre E].
    apply (f_equal (@rev N)) in E. rewrite rev_involutive, rev_app_distr in E.
    destruct (rev (drop_while p (rev y))) as [|a z]; [exact I|].
    apply (drop_while_head p s a (z ++ rev pre)). exact E.
  - rewrite rev_involutive. destruct (drop_while p (rev y)) as [|a t] eqn:E; [exact I|].
    apply (drop_while_head p (rev y) a t E).
Qed.

Lemma trim_by_idem p s : trim_by p (trim_by p s) = trim_by p s.
Proof. apply trim_by_noop, trim_by_edges. Qed.

Lemma edge_ok_all p s : (forall b, In b s -> p b = false) -> edge_ok p s.
Proof.
  intros H. split; [destruct s; [exact I|apply H; left; reflexivity]|].
  destruct (rev s) as [|a t] eqn:E; [exact I|]. apply H, in_rev. rewrite E. left. reflexivity.
Qed.

Lemma trim_noop s : edge_ok is_ws s -> trim s = s.
Proof. apply trim_by_noop. Qed.

Lemma trim_edges s : edge_ok is_ws (trim s).
Proof. apply trim_by_edges. Qed.

Theorem trim_idem s : trim (trim s) = trim s.
Proof. apply trim_by_idem. Qed.

Lemma trim_repeat c n : is_ws c = false -> trim (repeat c n) = repeat c n.
Proof.
  intros H. apply trim_noop, edge_ok_all. intros b Hb. apply repeat_spec in Hb. subst b. exact H.
Qed.

Lemma trim_sp v : trim (SP :: v) = trim v.
Proof. reflexivity. Qed.
