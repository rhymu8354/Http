(* DeflateStream.v -- every DEFLATE stream: any sequence of stored, fixed-code and dynamic-header blocks
   (RFC 1951), with any symbols and any tables the decoder accepts, specified by its bits with stored
   blocks starting at byte boundaries, is decoded by the model of inflate to RFC 1951's meaning of the
   blocks.  Then the zlib and gzip containers around it, and every stack of them (C13). *)
From Coq Require Import List NArith Arith Lia.
From Http Require Import Model.Bytes Model.Headers Model.Coding Model.Inflate Spec.DeflateStored
     Proofs.CodingGlue Proofs.InflateLocal Proofs.InflateTop Proofs.InflateC15 Proofs.InflateStored
     Proofs.HuffmanCanon Proofs.HuffmanFixed Proofs.HuffmanFixedLZ Proofs.HuffmanGen Proofs.HuffmanDyn
     Proofs.InflateWf.
Import ListNotations.

Inductive block :=
| BStored (data : bytes)
| BFixed (xs : list fsym)
| BDynamic (h : dyn_header) (lens : list N) (xs : list fsym).

Definition block_ok (b : block) : Prop :=
  match b with
  | BStored data => (N.of_nat (length data) <= 65535)%N /\ bytes_ok data
  | BFixed xs => Forall fsym_ok xs
  | BDynamic h lens xs =>
      header_ok h lens /\
      Forall (gsym_ok (firstn (d_hlit h) lens) (skipn (d_hlit h) lens)) xs /\
      has_code (firstn (d_hlit h) lens) 256
  end.

(* RFC 1951 meaning of a block over the output so far (most recent byte first) *)
Definition block_apply (out : bytes) (b : block) : bytes :=
  match b with
  | BStored data => rev data ++ out
  | BFixed xs => fold_left fsym_apply xs out
  | BDynamic _ _ xs => fold_left fsym_apply xs out
  end.

Definition is_huff (b : block) : bool := match b with BStored _ => false | _ => true end.

(* a compressed block after its first header bit: the two type bits and the body *)
Definition huff_bits (b : block) : list bool :=
  match b with
  | BStored _ => []
  | BFixed xs => [true; false] ++ block_bits xs
  | BDynamic h lens xs =>
      [false; true] ++ header_bits h ++ gblock_bits (firstn (d_hlit h) lens) (skipn (d_hlit h) lens) xs
  end.

(* LEN, NLEN and the data: Spec.DeflateStored.stored_blk without its first byte, whose three header
   bits and five padding bits Ser spells out; there the encoder pads with zeros, here with anything *)
Definition stored_bytes (data : bytes) : bytes :=
  let len := N.of_nat (length data) in
  [(len mod 256)%N; (len / 256)%N; ((65535 - len) mod 256)%N; ((65535 - len) / 256)%N] ++ data.

(* the bits of a stream of blocks, up to and including the padding of the last byte; the bits skipped
   before a stored block's LEN are arbitrary, and what follows them is whole bytes *)
Inductive Ser : list block -> list bool -> Prop :=
| Ser_last_stored data pad :
    length pad < 8 ->
    Ser [BStored data] ([true; false; false] ++ pad ++ flat_map byte_bits (stored_bytes data))
| Ser_last_huff b pad :
    is_huff b = true -> length pad < 8 ->
    Ser [b] ([true] ++ huff_bits b ++ pad)
| Ser_stored data pad bs rest :
    length pad < 8 -> length rest mod 8 = 0 -> Ser bs rest ->
    Ser (BStored data :: bs) ([false; false; false] ++ pad ++ flat_map byte_bits (stored_bytes data) ++ rest)
| Ser_huff b bs rest :
    is_huff b = true -> Ser bs rest ->
    Ser (b :: bs) ([false] ++ huff_bits b ++ rest).

Lemma state_of_bits' s pad z :
  wf s -> length pad < 8 -> length z mod 8 = 0 -> bits_of s = pad ++ z ->
  fst s = pad /\ flat_map byte_bits (snd s) = z.
Proof. exact (state_of_whole_bytes s pad z). Qed.

Lemma align_end s : length (bits_of s) < 8 -> align s = ([], []).
Proof. intros H. unfold align. rewrite (bits_short_no_bytes s H). reflexivity. Qed.

Lemma block_content_wf f out hdr s r s' : block_content f out hdr s = Ok r s' -> wf s -> wf s'.
Proof. exact (rel_block_content _ wfp_closed f f out hdr (le_n f) s r s'). Qed.

(* One round of `blocks` on the header bits of a block of type ty: what is left to show is what the
   content of the block decodes to.  The content depends on the type bits only, so it is stated at
   the header 2 * ty, whatever the final bit. *)
Lemma blocks_step fin ty f out s t :
  bits_of s = fin :: lsb_bits 2 ty ++ t -> (ty < 4)%N ->
  exists s3, bits_of s3 = t /\ (wf s -> wf s3) /\
    forall r s', block_content (S f) out (2 * ty) s3 = Ok r s' ->
      blocks (S f) out s = if fin then Ok r (align s') else blocks f r s'.
Proof.
  intros Hb Hty. destruct (getbit_view _ _ _ Hb) as [s1 [G1 B1]].
  destruct (getbits_lsb 2 ty s1 t B1 Hty) as [s3 [G2 B3]].
  assert (G : getbits 3 s = Ok (bit_val fin + 2 * ty)%N s3)
    by (rewrite getbits_S; unfold bind, ret; rewrite G1, G2; reflexivity).
  exists s3. split; [exact B3|]. split; [exact (rel_getbits _ wfp_closed 3 _ _ _ G)|]. intros r s' C.
  rewrite blocks_S. unfold blocks_body, bind. rewrite G.
  replace (block_content (S f) out (bit_val fin + 2 * ty)) with (block_content (S f) out (2 * ty))
    by (unfold block_content; rewrite N.div2_double, N.div2_div, N.add_b2n_double_div2; reflexivity).
  rewrite C, N.odd_add_mul_2. destruct fin; reflexivity.
Qed.

Lemma stored_bytes_ok data : (N.of_nat (length data) <= 65535)%N -> bytes_ok data -> bytes_ok (stored_bytes data).
Proof.
  intros Hl Hd. unfold stored_bytes, bytes_ok. cbn [app].
  assert (H : forall x, (x <= 65535 -> x mod 256 < 256 /\ x / 256 < 256)%N).
  { intros x Hx. split; [apply N.mod_lt; discriminate | apply N.div_lt_upper_bound; [discriminate | lia]]. }
  destruct (H _ Hl) as [A1 A2]. destruct (H (65535 - N.of_nat (length data))%N (N.le_sub_l _ _)) as [A3 A4].
  repeat constructor; assumption.
Qed.

(* a stored block: the rest of the current byte is skipped, then whole bytes; finding the byte
   boundary in the bit view needs wf s *)
Lemma blocks_stored fin data pad rest f out s :
  block_ok (BStored data) -> wf s -> length pad < 8 -> length rest mod 8 = 0 ->
  bits_of s = [fin; false; false] ++ pad ++ flat_map byte_bits (stored_bytes data) ++ rest ->
  exists s', bits_of s' = rest /\ wf s' /\
    blocks (S f) out s = if fin then Ok (block_apply out (BStored data)) (align s')
                         else blocks f (block_apply out (BStored data)) s'.
Proof.
  intros [Hl Hd] Hw Hp Hr Hb.
  destruct (blocks_step fin 0 f out s _ Hb eq_refl) as [s3 [B3 [W3 Step]]].
  assert (Hz : length (flat_map byte_bits (stored_bytes data) ++ rest) mod 8 = 0).
  { rewrite app_length, flat_bits_length, Nat.add_comm, Nat.mul_comm, Nat.mod_add by discriminate. exact Hr. }
  destruct (state_of_whole_bytes s3 pad _ (W3 Hw) Hp Hz B3) as [_ S3]. destruct (W3 Hw) as [_ Wb].
  destruct (bytes_of_bits (stored_bytes data) (snd s3) rest S3 Wb (stored_bytes_ok _ Hl Hd)) as [r [Er Ez]].
  assert (C : block_content (S f) out (2 * 0) s3 = Ok (rev data ++ out) ([], r)).
  { destruct s3 as [c3 r3]. cbn [snd] in Er. subst r3.
    unfold stored_bytes. rewrite <- app_assoc. exact (stored_block_decodes c3 data out r Hl). }
  exists ([], r). exact (conj Ez (conj (block_content_wf _ _ _ _ _ _ C (W3 Hw)) (Step _ _ C))).
Qed.

(* a compressed block does not need wf s, and carries it along for the blocks that follow *)
Lemma blocks_huff fin b t f out s :
  is_huff b = true -> block_ok b -> length (huff_bits b) <= f ->
  bits_of s = [fin] ++ huff_bits b ++ t ->
  exists s', bits_of s' = t /\ (wf s -> wf s') /\
    blocks (S f) out s = if fin then Ok (block_apply out b) (align s') else blocks f (block_apply out b) s'.
Proof.
  intros Hh Hok Hf Hb. destruct b as [data | xs | h lens xs]; [discriminate | |];
    cbn [huff_bits block_ok block_apply] in *; rewrite <- ?app_assoc in Hb.
  - destruct (blocks_step fin 1 f out s _ Hb eq_refl) as [s3 [B3 [W3 Step]]].
    destruct (codes_symbols xs (S f) out s3 t Hok) as [s' [C B']]; [|exact B3|].
    { pose proof (block_bits_length xs Hok) as Hl. cbn [app length] in Hf. clear -Hl Hf. lia. }
    exists s'. exact (conj B' (conj (fun Hw => block_content_wf (S f) out (2 * 1) _ _ _ C (W3 Hw)) (Step _ _ C))).
  - destruct Hok as [Hh' [Hx Heob]].
    destruct (blocks_step fin 2 f out s _ Hb eq_refl) as [s3 [B3 [W3 Step]]].
    destruct (dynamic_block_content h lens xs (S f) out s3 t Hh' Hx Heob) as [s' [C B']]; [|exact B3|].
    { pose proof (gblock_bits_length _ _ xs Hx) as Hl. cbn [app length] in Hf. rewrite app_length in Hf.
      clear -Hl Hf. lia. }
    exists s'. exact (conj B' (conj (fun Hw => block_content_wf (S f) out (2 * 2) _ _ _ C (W3 Hw)) (Step _ _ C))).
Qed.

(* Fuel: the same f bounds the blocks and the symbols within each block; every block and every
   symbol takes at least one bit, so more fuel than there are bits is enough. *)
Lemma blocks_ser : forall bs bits, Ser bs bits -> Forall block_ok bs ->
  forall f out s, wf s -> bits_of s = bits -> length bits < f ->
    blocks f out s = Ok (fold_left block_apply bs out) ([], []).
Proof.
  intros bs bits HS.
  induction HS as [data pad Hp | b pad Hh Hp | data pad bs rest Hp Hr HS IH | b bs rest Hh HS IH];
    intros Hok [|f] out s Hw Hb Hf; try (destruct (Nat.nlt_0_r _ Hf); fail);
    apply Forall_cons_iff in Hok; destruct Hok as [Hb1 Hok]; cbn [fold_left];
    rewrite !app_length in Hf; cbn [length] in Hf.
  - rewrite <- (app_nil_r (flat_map _ _)) in Hb.
    destruct (blocks_stored true data pad [] f out s Hb1 Hw Hp eq_refl Hb) as [s' [B' [_ E]]].
    rewrite E, align_end by (rewrite B'; apply Nat.lt_0_succ). reflexivity.
  - destruct (blocks_huff true b pad f out s Hh Hb1) as [s' [B' [_ E]]]; [lia | exact Hb |].
    rewrite E, align_end by (rewrite B'; exact Hp). reflexivity.
  - destruct (blocks_stored false data pad rest f out s Hb1 Hw Hp Hr Hb) as [s' [B' [W' E]]].
    rewrite E. apply (IH Hok f _ s' W' B'). lia.
  - destruct (blocks_huff false b rest f out s Hh Hb1) as [s' [B' [W' E]]]; [lia | exact Hb |].
    rewrite E. apply (IH Hok f _ s' (W' Hw) B'). lia.
Qed.

(* a single final compressed block as a raw DEFLATE stream; nothing is asked of the bytes of e *)
Lemma final_huff_block_inverts (e : bytes) b pad :
  is_huff b = true -> block_ok b ->
  flat_map byte_bits e = [true] ++ huff_bits b ++ pad -> length pad < 8 ->
  inflate_raw_model e = Some (rev (block_apply [] b)).
Proof.
  intros Hh Hok He Hp. unfold inflate_raw_model, inflate_fuel, fuel_for.
  destruct (blocks_huff true b pad (8 * length e + 7) [] ([], e) Hh Hok) as [s' [B' [_ E]]]; [|exact He|].
  { rewrite <- flat_bits_length, He, !app_length. cbn [length]. lia. }
  rewrite (Nat.add_succ_r (8 * length e) 7).
  rewrite E, align_end by (rewrite B'; exact Hp). unfold to_option. rewrite rev_append_rev, app_nil_r. reflexivity.
Qed.

Theorem fixed_block_inverts e xs pad :
  Forall fsym_ok xs ->
  flat_map byte_bits e = [true; true; false] ++ block_bits xs ++ pad ->
  length pad < 8 ->
  inflate_raw_model e = Some (rev (fold_left fsym_apply xs [])).
Proof. intros Hx He Hp. exact (final_huff_block_inverts e (BFixed xs) pad eq_refl Hx He Hp). Qed.

Theorem fixed_literal_block_inverts e d pad :
  Forall (fun b => (b < 256)%N) d ->
  flat_map byte_bits e = [true; true; false] ++ lit_bits d ++ pad ->
  length pad < 8 ->
  inflate_raw_model e = Some d.
Proof.
  intros Hd He Hp. rewrite lit_bits_block in He.
  rewrite (fixed_block_inverts e (map FLit d) pad (proj2 (Forall_map FLit fsym_ok d) Hd) He Hp).
  rewrite literals_apply, app_nil_r, rev_involutive. reflexivity.
Qed.

Theorem dynamic_block_inverts e h lens xs pad :
  header_ok h lens ->
  let litlens := firstn (d_hlit h) lens in
  let distlens := skipn (d_hlit h) lens in
  Forall (gsym_ok litlens distlens) xs -> has_code litlens 256 ->
  flat_map byte_bits e = [true; false; true] ++ header_bits h ++ gblock_bits litlens distlens xs ++ pad ->
  length pad < 8 ->
  inflate_raw_model e = Some (rev (fold_left fsym_apply xs [])).
Proof.
  intros Hh litlens distlens Hx Heob He Hp.
  apply (final_huff_block_inverts e (BDynamic h lens xs) pad eq_refl (conj Hh (conj Hx Heob))); [|exact Hp].
  cbn [huff_bits]. rewrite <- !app_assoc. exact He.
Qed.

(* every DEFLATE stream is decoded to the meaning of its blocks *)
Theorem deflate_stream_inverts e bs :
  bytes_ok e -> Ser bs (flat_map byte_bits e) -> Forall block_ok bs ->
  inflate_fuel (fuel_for e) e = Ok (rev (fold_left block_apply bs [])) ([], []).
Proof.
  intros He HS Hok. unfold inflate_fuel.
  rewrite (blocks_ser bs _ HS Hok (fuel_for e) [] ([], e)).
  - rewrite rev_append_rev, app_nil_r. reflexivity.
  - split; cbn [fst snd]; [simpl; lia | exact He].
  - reflexivity.
  - rewrite flat_bits_length. unfold fuel_for. lia.
Qed.

Lemma raw_exact_extends e d f y :
  inflate_fuel (fuel_for e) e = Ok d ([], []) -> fuel_for e <= f ->
  inflate_fuel f (e ++ y) = Ok d ([], y).
Proof.
  intros H Hf. destruct (inflate_fuel_local _ _ _ _ _ H) as [_ [c [R [X _]]]].
  rewrite app_nil_r in R. subst c. exact (inflate_fuel_mono _ _ _ _ _ Hf (X y)).
Qed.

Lemma fuel_for_app_le (a b c : bytes) : fuel_for b <= fuel_for (a ++ b ++ c).
Proof. unfold fuel_for. rewrite !app_length. lia. Qed.

Lemma gzip_wraps h e foot d :
  gz_header_ok h -> inflate_fuel (fuel_for e) e = Ok d ([], []) ->
  length foot = 8 -> le32 (firstn 4 foot) = crc32 d ->
  le32 (skipn 4 foot) = (N.of_nat (length d) mod 4294967296)%N ->
  gunzip_model (h ++ e ++ foot) = Some d.
Proof.
  intros Hh He L8 C1 C2. unfold gunzip_model. rewrite gunzip_fuel_eq. unfold container. rewrite Hh.
  rewrite (raw_exact_extends e d _ foot He (fuel_for_app_le h e foot)).
  rewrite <- (app_nil_r foot), (take_app _ _ _ L8). unfold gzip_chk, M32. rewrite C1, C2, !N.eqb_refl. reflexivity.
Qed.

Lemma zlib_wraps cmf flg e a4 d :
  zlib_header_ok cmf flg = true -> inflate_fuel (fuel_for e) e = Ok d ([], []) ->
  length a4 = 4 -> be32 a4 = adler32 d ->
  inflate_zlib_model (cmf :: flg :: e ++ a4) = Some d /\ zlib_header (cmf :: flg :: e ++ a4) = true.
Proof.
  intros Hh He L4 Ha. split; [|rewrite zlib_header_ok_eq; exact Hh].
  unfold inflate_zlib_model. rewrite inflate_zlib_fuel_eq. unfold container. cbn [zlib_hdr]. rewrite Hh. unfold hok.
  change (fuel_for (cmf :: flg :: e ++ a4)) with (fuel_for ([cmf; flg] ++ e ++ a4)).
  rewrite (raw_exact_extends e d _ a4 He (fuel_for_app_le [cmf; flg] e a4)).
  rewrite <- (app_nil_r a4), (take_app _ _ _ L4). unfold zlib_chk. rewrite Ha, N.eqb_refl. reflexivity.
Qed.

(* e is a DEFLATE stream (RFC 1951) whose meaning is d *)
Definition deflate_of (d e : bytes) : Prop :=
  bytes_ok e /\ exists bs, Ser bs (flat_map byte_bits e) /\ Forall block_ok bs /\
                           d = rev (fold_left block_apply bs []).

Lemma deflate_of_exact d e : deflate_of d e -> inflate_fuel (fuel_for e) e = Ok d ([], []).
Proof. intros [He [bs [HS [Hok Ed]]]]. subst d. exact (deflate_stream_inverts e bs He HS Hok). Qed.

(* the three content codings as RFC 1951 / 1950 / 1952 define them, for ANY conforming encoder *)
Definition rfc_enc (f : format) (d e : bytes) : Prop :=
  match f with
  | Raw => deflate_of d e /\ zlib_header e = false
  | Zl => exists cmf flg body a4,
      zlib_header_ok cmf flg = true /\ deflate_of d body /\ length a4 = 4 /\ be32 a4 = adler32 d /\
      e = cmf :: flg :: body ++ a4
  | Gz => exists h body foot,
      gz_header_ok h /\ deflate_of d body /\ length foot = 8 /\ le32 (firstn 4 foot) = crc32 d /\
      le32 (skipn 4 foot) = (N.of_nat (length d) mod 4294967296)%N /\
      e = h ++ body ++ foot
  end.

Theorem decode_inverts_every_rfc_stack hs fs d e :
  Enc rfc_enc fs d e ->
  header_tokens hs CONTENT_ENCODING = map coding_token fs ->
  exists hs', decode_body_m hs e = Some (hs', d).
Proof.
  apply (decode_inverts_stack gunzip_model inflate_raw_model inflate_zlib_model rfc_enc).
  - intros d0 e0 [h [body [foot [Hh [Hd [L8 [C1 [C2 Ee]]]]]]]]. subst e0.
    exact (gzip_wraps h body foot d0 Hh (deflate_of_exact _ _ Hd) L8 C1 C2).
  - intros d0 e0 [cmf [flg [body [a4 [Hh [Hd [L4 [Ha Ee]]]]]]]]. subst e0.
    exact (zlib_wraps cmf flg body a4 d0 Hh (deflate_of_exact _ _ Hd) L4 Ha).
  - intros d0 e0 [Hd Hz]. split; [|exact Hz].
    unfold inflate_raw_model. rewrite (deflate_of_exact _ _ Hd). reflexivity.
Qed.
