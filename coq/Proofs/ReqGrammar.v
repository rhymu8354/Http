(* ReqGrammar.v -- Request::parse reports Complete exactly on the request grammar and
   extracts it faithfully (C03). *)
From Coq Require Import Lia.
From Http Require Import Model.Bytes Model.Utf8 Model.Num Model.Headers Model.Request
     Spec.HeaderGrammar Spec.ChunkedGrammar Spec.RequestGrammar Spec.Rejections
     Proofs.BytesLemmas Proofs.HeadersResume Proofs.HeaderAlgebra Proofs.HeaderGrammarProofs
     Proofs.ReqResume.

Section WithUri.
  Variable uri : Type.
  Variable uri_parse : bytes -> option uri.
  Notation P := (req_parse uri uri_parse).
  Notation D := (req_dispatch uri uri_parse).
  Notation PRL := (parse_request_line uri uri_parse).
  Notation RSD := (rshape_defect uri uri_parse).
  Notation RD := (request_defect uri uri_parse).

  Lemma within_sat cfg a b : within_max cfg (sat_add a b) <-> within_max cfg (a + b).
  Proof. rewrite <- (N.add_0_r (sat_add a b)), <- (N.add_0_r (a + b)). apply within_sat_add. Qed.

  Lemma within_sat0 cfg a b : within_max cfg (sat_add 0 a + b) <-> within_max cfg (a + b).
  Proof. apply (within_sat_add cfg 0 a b). Qed.

  Lemma parse_request_line_word m r :
    m <> [] -> find_byte SP m = None ->
    PRL (m ++ SP :: r) =
    match find_byte SP r with
    | None => inr ERequestLineNoTargetDelimiter
    | Some td =>
      match td with
      | O => inr ERequestLineNoTargetOrExtraWhitespace
      | _ =>
        match uri_parse (firstn td r) with
        | None => inr ERequestTargetUriInvalid
        | Some u =>
          if bytes_eqb (skipn (S td) r) HTTP11 then inl (m, u) else inr ERequestLineProtocol
        end
      end
    end.
  Proof.
    intros Hm Fm. unfold parse_request_line. rewrite (find_byte_app_none SP m r Fm).
    destruct m as [|x m']; [congruence|]. cbn [length]. cbv zeta.
    change (S (length m')) with (length (x :: m')).
    rewrite firstn_app_exact, skipn_app_cons. reflexivity.
  Qed.

  Lemma parse_request_line_words m t p :
    m <> [] -> find_byte SP m = None -> t <> [] -> find_byte SP t = None ->
    PRL (m ++ SP :: t ++ SP :: p) =
    match uri_parse t with
    | None => inr ERequestTargetUriInvalid
    | Some u => if bytes_eqb p HTTP11 then inl (m, u) else inr ERequestLineProtocol
    end.
  Proof.
    intros Hm Fm Ht Ft. rewrite (parse_request_line_word m _ Hm Fm).
    rewrite (find_byte_app_none SP t p Ft).
    destruct t as [|y t']; [congruence|]. cbn [length].
    change (S (length t')) with (length (y :: t')).
    rewrite firstn_app_exact, skipn_app_cons. reflexivity.
  Qed.

  Lemma parse_request_line_view line :
    match PRL line with
    | inl (meth, u) =>
        exists tstr, line = request_line meth tstr /\ meth <> [] /\ find_byte SP meth = None /\
                     tstr <> [] /\ find_byte SP tstr = None /\ uri_parse tstr = Some u
    | inr e => RSD line e
    end.
  Proof.
    destruct (find_byte SP line) as [md|] eqn:F1.
    2:{ unfold parse_request_line. rewrite F1. constructor. exact F1. }
    destruct (find_byte_word _ _ _ F1) as [m [r [-> [Fm _]]]]. clear F1.
    destruct m as [|x m']; [constructor|].
    assert (Hm : x :: m' <> []) by discriminate.
    destruct (find_byte SP r) as [td|] eqn:F2.
    2:{ rewrite (parse_request_line_word _ r Hm Fm), F2. constructor; assumption. }
    destruct (find_byte_word _ _ _ F2) as [t [p [-> [Ft _]]]]. clear F2.
    destruct t as [|y t'].
    { change ([] ++ SP :: p) with (SP :: p). rewrite (parse_request_line_word _ _ Hm Fm).
      cbn [find_byte]. rewrite N.eqb_refl. exact (RS_no_target uri uri_parse _ p Hm Fm). }
    assert (Ht : y :: t' <> []) by discriminate.
    rewrite (parse_request_line_words _ _ p Hm Fm Ht Ft).
    destruct (uri_parse (y :: t')) as [u|] eqn:U; [|constructor; assumption].
    destruct (bytes_eqb p HTTP11) eqn:B.
    - apply bytes_eqb_eq in B. subst p. exists (y :: t'). repeat split; assumption.
    - apply bytes_eqb_false in B. econstructor; eassumption.
  Qed.

  Lemma parse_request_line_complete lim meth tstr u :
    request_line_ok uri uri_parse lim meth tstr u -> PRL (request_line meth tstr) = inl (meth, u).
  Proof.
    intros [Hm [Hms [Ht [Hts [Hu _]]]]]. unfold request_line. cbn [app].
    rewrite parse_request_line_words, Hu, bytes_eqb_refl by assumption. reflexivity.
  Qed.

  (* the last step of Request::parse (check_bytes_presented), as a function of the answer of the
     phase functions: more input is asked for only if the bytes presented fit the maximum *)
  Definition check_presented (cfg : rcfg) (len : nat) (r : req_state uri * outcome) : req_state uri * outcome :=
    match r with
    | (st', Incomplete c) =>
        if presented_ok cfg (r_total st') (len - c) then (st', Incomplete c)
        else (req_init, Reject EMessageTooLong)
    | r => r
    end.

  Lemma req_parse_line_form cfg l rest :
    is_line l ->
    P cfg req_init (l ++ CRLF ++ rest) =
    if over_limit (length l) (rl cfg) then (req_init, Reject ERequestLineTooLong) else
    if negb (utf8_valid l) then (req_init, Reject ERequestLineNotValidText) else
    match count_bytes cfg 0 (N.of_nat (length l + 2)) with
    | None => (req_init, Reject EMessageTooLong)
    | Some t =>
      match parse_request_line uri uri_parse l with
      | inr er => (req_init, Reject er)
      | inl (meth, u) =>
          check_presented cfg (length (l ++ CRLF ++ rest))
             (shift uri (length l + 2) (req_headers uri cfg (line_state uri req_init meth u t) rest))
      end
    end.
  Proof.
    intros Hl. rewrite req_parse_eq. unfold req_dispatch. cbn [r_phase req_init]. unfold req_line.
    rewrite (is_line_find l rest Hl). rewrite firstn_app_exact, skipn_line.
    destruct (over_limit (length l) (rl cfg)); [reflexivity|].
    destruct (negb (utf8_valid l)); [reflexivity|].
    cbn [r_total req_init].
    destruct (count_bytes cfg 0 (N.of_nat (length l + 2))) as [t|]; [|reflexivity].
    destruct (parse_request_line uri uri_parse l) as [[meth u]|er]; [|reflexivity].
    cbn [r_headers r_body req_init]. unfold line_state, check_presented.
    destruct (shift uri _ _) as [sx [k|k|ex]]; reflexivity.
  Qed.

  Lemma req_headers_form cfg meth u t rest :
    req_headers uri cfg (line_state uri req_init meth u t) rest =
    match hdr_parse (hl cfg) [] (strip_cr rest) with
    | HError e => (line_state uri req_init meth u t, Reject (EHeaders e))
    | HIncomplete hs c =>
      match count_bytes cfg t (N.of_nat c) with
      | None => (line_state uri req_init meth u t, Reject EMessageTooLong)
      | Some t2 =>
        ({| r_phase := PHeaders; r_method := meth; r_target := Some u;
            r_headers := hs; r_body := []; r_total := t2 |}, Incomplete c)
      end
    | HComplete hs c =>
      match count_bytes cfg t (N.of_nat c) with
      | None => (line_state uri req_init meth u t, Reject EMessageTooLong)
      | Some t2 =>
        match header_value hs CONTENT_LENGTH with
        | None =>
          ({| r_phase := PHeaders; r_method := meth; r_target := Some u;
              r_headers := hs; r_body := []; r_total := t2 |}, Complete c)
        | Some v =>
          match parse_dec v with
          | None => (line_state uri req_init meth u t, Reject EInvalidContentLength)
          | Some n =>
            match count_bytes cfg t2 n with
            | None => (line_state uri req_init meth u t, Reject EMessageTooLong)
            | Some t3 =>
              shift uri c
                (req_body uri
                   {| r_phase := PBody n; r_method := meth; r_target := Some u;
                      r_headers := hs; r_body := []; r_total := t3 |}
                   n (skipn c rest))
            end
          end
        end
      end
    end.
  Proof. reflexivity. Qed.

  Lemma req_parse_good_line cfg l rest meth u :
    line_good uri uri_parse cfg l meth u ->
    P cfg req_init (l ++ CRLF ++ rest) =
    check_presented cfg (length (l ++ CRLF ++ rest))
       (shift uri (length l + 2)
          (req_headers uri cfg (line_state uri req_init meth u (sat_add 0 (N.of_nat (length l + 2)))) rest)).
  Proof.
    intros (tstr & -> & Hok & W). pose proof (parse_request_line_complete _ _ _ _ Hok) as PL.
    destruct Hok as (_ & _ & _ & _ & _ & Hil & Hutf & Hlim).
    rewrite (req_parse_line_form cfg _ rest Hil), Hlim, Hutf, (count_bytes_within cfg 0 _ W), PL.
    reflexivity.
  Qed.

  Theorem req_parse_complete cfg m v rest :
    IsRequest uri uri_parse cfg m v ->
    exists st, P cfg req_init (m ++ rest) = (st, Complete (length m)) /\
               value_of uri st (v_target v) = v /\ r_target st = Some (v_target v).
  Proof.
    intros (tstr & fs & -> & Hline & Hblock & Hhs & Hbody).
    destruct v as [meth u hs body]. cbn [v_method v_target v_headers v_body] in *. subst hs.
    set (l := request_line meth tstr) in *.
    (* the size tests: all of them follow from the last one *)
    assert (Hw : within_max cfg (N.of_nat (length l + 2 + length (header_block fs)))).
    { destruct (header_value _ CONTENT_LENGTH) as [t|]; [|tauto].
      destruct Hbody as (n & _ & _ & Hw). eapply within_max_mono; [|exact Hw]. lia. }
    assert (LG : line_good uri uri_parse cfg l meth u).
    { exists tstr. split; [reflexivity|]. split; [exact Hline|].
      eapply within_max_mono; [|exact Hw]. lia. }
    assert (Hlen : length (l ++ CRLF ++ header_block fs ++ body)
                   = length l + 2 + (length (header_block fs) + length body))
      by (rewrite !app_length; cbn [length CRLF]; lia).
    rewrite Hlen, <- !app_assoc, (req_parse_good_line cfg l _ meth u LG), req_headers_form.
    rewrite strip_cr_after_block, (hdr_parse_complete (hl cfg) [] fs _ Hblock). cbn [app].
    rewrite count_bytes_within by (apply within_sat0; rewrite <- Nat2N.inj_add; exact Hw).
    rewrite skipn_app_exact.
    destruct (header_value (map field_header fs) CONTENT_LENGTH) as [t|].
    - destruct Hbody as (n & PD & Hb & Hwn). rewrite PD.
      rewrite count_bytes_within
        by (apply within_sat_add; rewrite <- N.add_assoc; apply within_sat0;
            eapply within_max_mono; [|exact Hwn]; lia).
      rewrite (req_body_done uri _ n (body ++ rest) (length body))
        by (cbn [r_body length]; rewrite ?app_length; lia).
      rewrite firstn_app_exact. cbn [shift check_presented]. eexists. repeat split.
    - destruct Hbody as [-> _]. cbn [shift check_presented length]. rewrite !Nat.add_0_r.
      eexists. repeat split.
  Qed.

  (* every answer of a fresh parser, by one walk along the buffer: an accepted buffer starts
     with a message of the grammar, which is what the state holds; more input is asked for
     only while the element being read is unfinished; a rejected buffer has a first offending
     element of the category named *)
  Lemma req_parse_answers cfg s :
    match P cfg req_init s with
    | (st, Complete c) =>
        exists u m z, s = m ++ z /\ c = length m /\ r_target st = Some u /\
                      IsRequest uri uri_parse cfg m (value_of uri st u)
    | (st, Incomplete c) =>
        match r_phase st with
        | PRequestLine => find_crlf s = None /\ c = 0
        | PHeaders =>
            exists e hs k, find_crlf s = Some e /\ c = e + 2 + k /\
                           hdr_parse (hl cfg) [] (strip_cr (skipn (e + 2) s)) = HIncomplete hs k
        | PBody n => c = length s /\ (N.of_nat (length (r_body st)) < n)%N
        end
    | (_, Reject e) => RD cfg s e
    end.
  Proof.
    destruct (line_cases s) as [F|(l & rest & -> & Hl)].
    { rewrite req_parse_eq. unfold req_dispatch. cbn [r_phase req_init]. unfold req_line. rewrite F.
      destruct (over_limit _ _) eqn:O; [apply RD_unterminated_long; assumption|].
      cbn [r_total req_init]. rewrite Nat.sub_0_r.
      destruct (presented_ok cfg 0 (length s)) eqn:PO; [split; reflexivity|].
      apply RD_unterminated_max; try assumption.
      intros W. apply (presented_ok_iff cfg 0 (length s)) in W. congruence. }
    rewrite (req_parse_line_form cfg l rest Hl).
    destruct (over_limit (length l) (rl cfg)) eqn:O;
      [apply (RD_line uri uri_parse cfg l rest _ Hl), RLD_long; exact O|].
    destruct (utf8_valid l) eqn:U; cbn [negb];
      [|apply (RD_line uri uri_parse cfg l rest _ Hl), RLD_text; assumption].
    destruct (count_bytes cfg 0 (N.of_nat (length l + 2))) as [t1|] eqn:C1.
    2:{ apply (RD_line uri uri_parse cfg l rest _ Hl), RLD_max; try assumption.
        apply count_bytes_none_iff in C1. exact C1. }
    apply count_bytes_some_iff in C1. destruct C1 as [-> W1].
    pose proof (parse_request_line_view l) as V.
    destruct (PRL l) as [[meth u]|er];
      [|apply (RD_line uri uri_parse cfg l rest _ Hl), RLD_shape; assumption].
    destruct V as (tstr & Hlt & Hm & Hms & Ht & Hts & Hu).
    assert (Hok : request_line_ok uri uri_parse (rl cfg) meth tstr u)
      by (unfold request_line_ok; rewrite <- Hlt; repeat split; assumption).
    assert (LG : line_good uri uri_parse cfg l meth u) by (exists tstr; auto).
    pose proof (line_length l rest) as Hlen. pose proof (strip_cr_length rest) as Hsl.
    (* a size that fits the whole buffer passes the tests made after the line *)
    assert (Hfit : forall x y, (N.of_nat (length l + 2) + x <= y)%N -> within_max cfg y ->
                               within_max cfg (sat_add 0 (N.of_nat (length l + 2)) + x)).
    { intros x y Hxy W. apply within_sat0. eapply within_max_mono; [exact Hxy|exact W]. }
    rewrite req_headers_form.
    destruct (hdr_parse (hl cfg) [] (strip_cr rest)) as [hs c|hs k|eh] eqn:HP.
    3:{ apply hdr_parse_reject_iff in HP. exact (RD_headers uri uri_parse cfg l rest meth u eh LG HP). }
    2:{ destruct (hdr_incomplete_pending _ _ _ _ HP) as [BP Hk].
        assert (Hpm : forall x,
                  (N.of_nat (length l + 2) + x <= N.of_nat (length (l ++ CRLF ++ rest)))%N ->
                  ~ within_max cfg (sat_add 0 (N.of_nat (length l + 2)) + x) ->
                  RD cfg (l ++ CRLF ++ rest) EMessageTooLong).
        { intros x Hx Hn. apply (RD_pending_max uri uri_parse cfg l rest meth u LG BP).
          intros W. exact (Hn (Hfit _ _ Hx W)). }
        destruct (count_bytes cfg _ (N.of_nat k)) as [t2|] eqn:C; cbn [shift check_presented r_total].
        - apply count_bytes_some_iff in C. destruct C as [-> _].
          destruct (presented_ok cfg _ _) eqn:PO.
          { exists (length l), hs, k. rewrite (is_line_find _ _ Hl), skipn_line. auto. }
          apply (Hpm (N.of_nat k + N.of_nat (length (l ++ CRLF ++ rest) - (length l + 2 + k)))%N);
            [rewrite Hlen; lia|].
          intros W. rewrite N.add_assoc in W.
          apply (proj2 (within_sat_add cfg _ _ _)), presented_ok_iff in W. congruence.
        - apply count_bytes_none_iff in C. apply (Hpm (N.of_nat k)); [rewrite Hlen; lia|exact C]. }
    destruct (hdr_complete_block _ _ _ _ HP) as (fs & y & BC & -> & -> & ->).
    rewrite skipn_app_exact. rewrite app_length in Hlen.
    destruct (count_bytes cfg _ (N.of_nat (length (header_block fs)))) as [t2|] eqn:C2.
    2:{ apply count_bytes_none_iff in C2. apply (RD_block_max uri uri_parse cfg l _ meth u fs LG BC).
        intros W. apply C2. apply (Hfit _ _) with (2 := W). lia. }
    apply count_bytes_some_iff in C2. destruct C2 as [-> W2].
    apply (proj1 (within_sat0 cfg _ _)) in W2. rewrite <- Nat2N.inj_add in W2.
    assert (HI : forall body,
      match header_value (map field_header fs) CONTENT_LENGTH with
      | None => body = [] /\ within_max cfg (N.of_nat (length l + 2 + length (header_block fs)))
      | Some t => exists n, parse_dec t = Some n /\ length body = N.to_nat n /\
                            within_max cfg (N.of_nat (length l + 2 + length (header_block fs)) + n)
      end ->
      IsRequest uri uri_parse cfg (l ++ CRLF ++ header_block fs ++ body)
                {| v_method := meth; v_target := u; v_headers := map field_header fs; v_body := body |}).
    { intros body Hb. exists tstr, fs. cbn [v_method v_target v_headers v_body]. rewrite <- Hlt.
      exact (conj eq_refl (conj Hok (conj (proj1 BC) (conj eq_refl Hb)))). }
    destruct (header_value (map field_header fs) CONTENT_LENGTH) as [v|] eqn:HV.
    2:{ cbn [shift check_presented]. exists u, (l ++ CRLF ++ header_block fs), y.
        split; [rewrite <- !app_assoc; reflexivity|].
        split; [rewrite !app_length; cbn [length CRLF]; lia|]. split; [reflexivity|].
        rewrite <- (app_nil_r (header_block fs)). apply HI. auto. }
    destruct (parse_dec v) as [n|] eqn:PD;
      [|exact (RD_content_length uri uri_parse cfg l _ meth u fs v LG BC W2 HV PD)].
    destruct (count_bytes cfg _ n) as [t3|] eqn:C3.
    2:{ apply count_bytes_none_iff in C3.
        apply (RD_declared_max uri uri_parse cfg l _ meth u fs v n LG BC W2 HV PD).
        intros W. apply C3. apply within_sat_add. rewrite <- N.add_assoc.
        apply (Hfit _ _) with (2 := W). lia. }
    match goal with |- context [req_body uri ?sb n y] =>
      destruct (req_body_view uri sb n y) as [k Hk Hl'|Hlt'] end; cbn [shift check_presented].
    - exists u, (l ++ CRLF ++ header_block fs ++ firstn k y), (skipn k y).
      split; [rewrite <- !app_assoc, firstn_skipn; reflexivity|].
      split; [rewrite !app_length, firstn_length_le by exact Hl'; cbn [length CRLF]; lia|].
      split; [reflexivity|]. apply HI. exists n. cbn [r_body length] in Hk.
      split; [reflexivity|]. split; [rewrite firstn_length_le by exact Hl'; lia|].
      apply count_bytes_some_iff in C3. destruct C3 as [_ W3].
      rewrite sat_add_assoc in W3. apply (proj1 (within_sat0 cfg _ _)) in W3.
      eapply within_max_mono; [|exact W3]. lia.
    - (* a declared body that is still short: everything presented was consumed, and the count
         already includes the declaration, so the test on the bytes presented passes *)
      apply count_bytes_tot_ok in C3. destruct C3 as [_ Ok]. cbn [r_total add_body].
      assert (Hall : length l + 2 + (length (header_block fs) + length y)
                     = length (l ++ CRLF ++ header_block fs ++ y))
        by (rewrite !app_length; cbn [length CRLF]; lia).
      rewrite Hall, Nat.sub_diag, Ok. cbn [r_phase r_body add_body app] in *.
      split; [reflexivity|lia].
  Qed.

  Theorem req_parse_sound cfg s st c :
    P cfg req_init s = (st, Complete c) ->
    exists u, r_target st = Some u /\ IsRequest uri uri_parse cfg (firstn c s) (value_of uri st u).
  Proof.
    intros H. pose proof (req_parse_answers cfg s) as HI. rewrite H in HI.
    destruct HI as (u & m & z & -> & -> & Ht & HI). rewrite firstn_app_exact. eauto.
  Qed.

  (* the bytes of a request determine its method, headers and body (the target is what
     [uri_parse] makes of the target string: the statement does not compare it) *)
  Theorem IsRequest_functional cfg m v v' :
    IsRequest uri uri_parse cfg m v -> IsRequest uri uri_parse cfg m v' ->
    v_method v = v_method v' /\ v_headers v = v_headers v' /\ v_body v = v_body v'.
  Proof.
    intros H1 H2.
    destruct (req_parse_complete cfg m v [] H1) as [st [E1 [V1 _]]].
    destruct (req_parse_complete cfg m v' [] H2) as [st' [E2 [V2 _]]].
    rewrite E1 in E2. inversion E2; subst st'.
    rewrite <- V1, <- V2. repeat split.
  Qed.
End WithUri.
