(* Numeric.v -- first the decimal and hex parsers on their own (Model.Num only): they accept
   exactly 1*DIGIT / 1*HEXDIG within usize, and usize::to_string is inverted by the decimal
   parser, parse_dec (show_dec n) = n.  Then the length-determining fields of requests,
   responses and chunks: each is read by those parsers, so is accepted only in RFC form. *)
From Coq Require Import Lia.
From Http Require Import Model.Bytes Model.Utf8 Model.Num Model.Headers Model.Request Model.Chunked
     Model.Response Spec.Delivery Proofs.BytesLemmas Proofs.ReqResume.

Definition all_digits (s : bytes) : Prop := s <> [] /\ forallb is_digit s = true.
Definition all_hexdigits (s : bytes) : Prop := s <> [] /\ forallb is_hexdigit s = true.

(* parse_dec and parse_hex are one check with the digit test and the value function changed:
   non-empty, all digits, value within usize *)
Lemma checked_digits_iff (ok : N -> bool) (value : bytes -> N) s n :
  match s with
  | [] => None
  | _ => if forallb ok s
         then let v := value s in if N.leb v USIZE_MAX then Some v else None
         else None
  end = Some n <->
  (s <> [] /\ forallb ok s = true) /\ n = value s /\ (n <= USIZE_MAX)%N.
Proof.
  destruct s as [|a s'].
  - split; [discriminate|intros [[H _] _]; contradiction].
  - destruct (forallb ok (a :: s')); [|split; [discriminate|intros [[_ H] _]; discriminate]].
    cbv zeta. destruct (N.leb_spec (value (a :: s')) USIZE_MAX) as [L|L].
    + split.
      * intros [= <-]. repeat split; [discriminate|exact L].
      * intros (_ & -> & _). reflexivity.
    + split; [discriminate|]. intros (_ & -> & L'). apply N.lt_nge in L. contradiction.
Qed.

Lemma parse_dec_digits s n : parse_dec s = Some n -> all_digits s /\ n = dec_value s /\ (n <= USIZE_MAX)%N.
Proof. apply (checked_digits_iff is_digit dec_value). Qed.

Lemma parse_hex_digits s n : parse_hex s = Some n -> all_hexdigits s /\ n = hex_value s /\ (n <= USIZE_MAX)%N.
Proof. apply (checked_digits_iff is_hexdigit hex_value). Qed.

(* the converse: every digit string whose value fits is accepted, so the accepted set is
   exactly 1*DIGIT (resp. 1*HEXDIG) with value <= usize::MAX *)
Lemma parse_dec_complete s : all_digits s -> (dec_value s <= USIZE_MAX)%N -> parse_dec s = Some (dec_value s).
Proof. intros D L. apply (checked_digits_iff is_digit dec_value). auto. Qed.

Lemma parse_hex_complete s : all_hexdigits s -> (hex_value s <= USIZE_MAX)%N -> parse_hex s = Some (hex_value s).
Proof. intros D L. apply (checked_digits_iff is_hexdigit hex_value). auto. Qed.

(* what the standard-library parsers (usize::from_str, modelled by parse_dec_rust) accept in
   addition: exactly a leading '+' *)
Lemma parse_dec_rust_extra s n :
  parse_dec_rust s = Some n -> ~ all_digits s ->
  exists t, s = PLUS :: t /\ all_digits t /\ parse_dec t = Some n.
Proof.
  unfold parse_dec_rust. destruct s as [|b [|c t]].
  - discriminate.
  - intros H Hn. apply parse_dec_digits in H. tauto.
  - destruct (N.eqb b PLUS) eqn:E.
    + apply N.eqb_eq in E. subst. intros H _. exists (c :: t). split; [reflexivity|].
      split; [apply (parse_dec_digits _ _ H)|exact H].
    + intros H Hn. apply parse_dec_digits in H. tauto.
Qed.

Lemma dec_value_snoc l d : dec_value (l ++ [d]) = (dec_value l * 10 + digit_val d)%N.
Proof. unfold dec_value. rewrite fold_left_app. reflexivity. Qed.

Lemma show_dec_aux_app f : forall n acc, show_dec_aux f n acc = show_dec_aux f n [] ++ acc.
Proof.
  induction f as [|f IH]; intros n acc; [reflexivity|]. cbn [show_dec_aux].
  destruct (N.ltb n 10); [reflexivity|].
  rewrite (IH _ (_ :: acc)), (IH _ [_]), <- app_assoc. reflexivity.
Qed.

Lemma show_dec_aux_S f n :
  show_dec_aux (S f) n [] =
  (if N.ltb n 10 then [] else show_dec_aux f (n / 10) []) ++ [(48 + n mod 10)%N].
Proof. cbn [show_dec_aux]. destruct (N.ltb n 10); [reflexivity|apply show_dec_aux_app]. Qed.

Lemma digit_char d : (d < 10)%N -> is_digit (48 + d) = true /\ digit_val (48 + d) = d.
Proof. intros H. unfold digit_val. split; [apply between_spec|]; lia. Qed.

Lemma show_dec_aux_spec f : forall n, (n < 2 ^ N.of_nat f)%N ->
  forallb is_digit (show_dec_aux f n []) = true /\ dec_value (show_dec_aux f n []) = n.
Proof.
  induction f as [|f IH]; intros n Hn.
  - apply N.lt_1_r in Hn as ->. split; reflexivity.
  - rewrite show_dec_aux_S, forallb_app, dec_value_snoc. cbn [forallb].
    destruct (digit_char (n mod 10)) as [-> ->]; [apply N.mod_lt; discriminate|].
    rewrite Nat2N.inj_succ, N.pow_succ_r' in Hn.
    destruct (N.ltb_spec n 10) as [L|L].
    + split; [reflexivity|]. apply N.mod_small, L.
    + destruct (IH (n / 10)%N) as [-> ->]; [apply N.div_lt_upper_bound; lia|].
      split; [reflexivity|]. rewrite N.mul_comm. symmetry. apply N.div_mod. discriminate.
Qed.

Theorem show_dec_digits n : show_dec n <> [] /\ forallb is_digit (show_dec n) = true /\ dec_value (show_dec n) = n.
Proof.
  unfold show_dec. split.
  - rewrite show_dec_aux_S. intros H. apply app_eq_nil in H as [_ H]. discriminate.
  - apply show_dec_aux_spec. rewrite Nat2N.inj_succ, N2Nat.id.
    destruct n as [|p]; [reflexivity|]. apply N.log2_spec. reflexivity.
Qed.

Theorem parse_show_dec n : (n <= USIZE_MAX)%N -> parse_dec (show_dec n) = Some n.
Proof.
  intros Hle. destruct (show_dec_digits n) as [Hne [Hd Hv]].
  unfold parse_dec. destruct (show_dec n) as [|a l] eqn:E; [congruence|].
  rewrite Hd, Hv. apply N.leb_le in Hle. rewrite Hle. reflexivity.
Qed.

(* the status-code field: the text between the first and the second space *)
Definition status_code_field (line : bytes) : option bytes :=
  match find_byte SP line with
  | None => None
  | Some pd =>
    let rest := skipn (S pd) line in
    match find_byte SP rest with
    | None => None
    | Some cd => Some (firstn cd rest)
    end
  end.

Lemma status_line_code_digits line code reason :
  parse_status_line line = inl (code, reason) ->
  exists f, status_code_field line = Some f /\ all_digits f /\ code = dec_value f /\ (code < 1000)%N.
Proof.
  unfold parse_status_line, status_code_field.
  destruct (find_byte SP line) as [pd|]; [|discriminate].
  destruct (negb (bytes_eqb (firstn pd line) HTTP11)); [discriminate|]. cbv zeta.
  destruct (find_byte SP (skipn (S pd) line)) as [cd|]; [|discriminate].
  destruct (parse_dec (firstn cd (skipn (S pd) line))) as [c|] eqn:PD; [|discriminate].
  destruct (N.ltb c 1000) eqn:L; [|discriminate].
  intros H. inversion H; subst. eexists. split; [reflexivity|].
  destruct (parse_dec_digits _ _ PD) as [D [V _]]. split; [exact D|]. split; [exact V|].
  apply N.ltb_lt. exact L.
Qed.

Definition chunk_size_field (line : bytes) : bytes :=
  match find_byte SEMI line with Some d => firstn d line | None => line end.

Lemma decode_size_hexdigits st buf st' c :
  decode_size st buf = CPart st' c ->
  exists e, find_crlf buf = Some e /\ c = e + 2 /\ all_hexdigits (chunk_size_field (firstn e buf)).
Proof.
  unfold decode_size. destruct (find_crlf buf) as [e|]; [|discriminate]. cbv zeta.
  destruct (negb (utf8_valid (firstn e buf))); [discriminate|].
  destruct (parse_chunk_size (firstn e buf)) as [n|] eqn:PC; [|discriminate].
  intros H. inversion H; subst. exists e. split; [reflexivity|]. split; [reflexivity|].
  unfold parse_chunk_size in PC. unfold chunk_size_field.
  destruct (find_byte SEMI (firstn e buf)); apply (parse_hex_digits _ _ PC).
Qed.

Section WithUri.
  Variable uri : Type.
  Variable uri_parse : bytes -> option uri.
  Notation P := (req_parse uri uri_parse).

  (* states in the body phase got there through a digits-only Content-Length *)
  Definition body_length_declared (st : req_state uri) : Prop :=
    match r_phase st with
    | PBody n => exists t, header_value (r_headers st) CONTENT_LENGTH = Some t /\ parse_dec t = Some n
    | _ => True
    end.

  Definition content_length_digits (st : req_state uri) : Prop :=
    forall t, header_value (r_headers st) CONTENT_LENGTH = Some t -> all_digits t.

  Definition cl_outcome (r : req_state uri * outcome) : Prop :=
    match r with
    | (st1, Complete _) => content_length_digits st1
    | (st1, Incomplete _) => body_length_declared st1
    | (_, Reject _) => True
    end.

  Lemma cl_outcome_shift k r : cl_outcome r -> cl_outcome (shift uri k r).
  Proof. destruct r as [s [c|c|e]]; exact id. Qed.

  Lemma req_body_cl st n buf v :
    r_phase st = PBody n -> header_value (r_headers st) CONTENT_LENGTH = Some v ->
    parse_dec v = Some n -> cl_outcome (req_body uri st n buf).
  Proof.
    intros Hph HV PD. destruct (req_body_view uri st n buf) as [k _ _|_]; cbn [cl_outcome].
    - intros t Ht. cbn [add_body r_headers] in Ht. rewrite HV in Ht. injection Ht as <-.
      apply (parse_dec_digits _ _ PD).
    - unfold body_length_declared. cbn [add_body r_phase r_headers]. rewrite Hph. eauto.
  Qed.

  Lemma req_headers_cl cfg st buf : cl_outcome (req_headers uri cfg st buf).
  Proof.
    destruct (req_headers_view uri cfg st buf)
      as [ | | | |hs c t _ _ HV| | |hs c t v n t2 _ _ HV PD _]; try exact I.
    - intros t' Ht'. change (header_value hs CONTENT_LENGTH = Some t') in Ht'. congruence.
    - apply cl_outcome_shift, (req_body_cl _ n _ v); [reflexivity|exact HV|exact PD].
  Qed.

  Lemma req_dispatch_cl cfg st buf :
    body_length_declared st -> cl_outcome (req_dispatch uri uri_parse cfg st buf).
  Proof.
    intros Hinv. unfold req_dispatch. destruct (r_phase st) as [| |n] eqn:Hph.
    - destruct (req_line_view uri uri_parse cfg st buf) as [ | | | | | |e t m u _ _ _ _ _];
        try exact I.
      + unfold cl_outcome, body_length_declared. rewrite Hph. exact I.
      + apply cl_outcome_shift, req_headers_cl.
    - apply req_headers_cl.
    - unfold body_length_declared in Hinv. rewrite Hph in Hinv. destruct Hinv as (t & Ht & PD).
      exact (req_body_cl st n buf t Hph Ht PD).
  Qed.

  Lemma req_parse_cl cfg st buf : body_length_declared st -> cl_outcome (P cfg st buf).
  Proof.
    intros Hinv. pose proof (req_dispatch_cl cfg st buf Hinv) as H. unfold req_parse.
    destruct (req_dispatch uri uri_parse cfg st buf) as [s [k|k|e]]; [exact H| |exact I].
    destruct (presented_ok _ _ _); [exact H|exact I].
  Qed.

  Theorem request_cl_digits cfg ds st pending tot st' tot' rest :
    body_length_declared st ->
    feed _ (P cfg) st pending ds tot = Done st' tot' rest ->
    content_length_digits st'.
  Proof.
    revert st pending tot. induction ds as [|d ds IH]; intros st pending tot Hinv; [discriminate|].
    cbn [feed]. pose proof (req_parse_cl cfg st (pending ++ d) Hinv) as HP.
    destruct (P cfg st (pending ++ d)) as [s1 [c|c|e]]; [|apply IH; exact HP|discriminate].
    intros [= <- _ _]. exact HP.
  Qed.
End WithUri.

(* Content-Length is read in one place only, when the header block completes *)
Lemma resp_headers_cl st buf st1 o hs c :
  resp_headers st buf = (st1, o) ->
  hdr_parse None (s_headers st) buf = HComplete hs c ->
  match header_value hs CONTENT_LENGTH with
  | Some v => (exists k, o = Reject k) \/ all_digits v
  | None => True
  end.
Proof.
  unfold resp_headers. intros H HP. rewrite HP in H. cbv zeta in H.
  destruct (header_value hs CONTENT_LENGTH) as [v|]; [|exact I].
  destruct (parse_dec v) as [n|] eqn:PD.
  - right. apply (parse_dec_digits _ _ PD).
  - left. injection H as _ <-. eauto.
Qed.
