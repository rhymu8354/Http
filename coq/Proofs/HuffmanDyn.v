(* HuffmanDyn.v -- the header of a dynamic block (RFC 1951 3.2.7), for ANY header an encoder may write:
   any HLIT/HDIST/HCLEN, any code-length code, any run-length coding of the code lengths, any pair of
   tables the decoder accepts.  The decoder reads from it the two tables the header denotes. *)
From Coq Require Import List NArith Arith Lia.
From Http Require Import Model.Bytes Model.Inflate Proofs.InflateLocal Proofs.HuffmanCanon Proofs.HuffmanFixedLZ
     Proofs.HuffmanGen.
Import ListNotations.

(* the lengths of the code-length code, written in HUFFLEN_ORDER *)
Fixpoint place (order : list nat) (vs : list N) (acc : list N) : list N :=
  match order, vs with
  | o :: order', v :: vs' => place order' vs' (set_nth o v acc)
  | _, _ => acc
  end.

Lemma read_hufflens_correct : forall vs order acc s t,
    length vs <= length order ->
    Forall (fun v => (v < 8)%N) vs ->
    bits_of s = concat (map (lsb_bits 3) vs) ++ t ->
    exists s', read_hufflens order (length vs) acc s = Ok (place order vs acc) s' /\ bits_of s' = t.
Proof.
  induction vs as [|v vs IH]; intros [|o order] acc s t Hl Hv Hb; try (inversion Hl; fail);
    try (exists s; split; [reflexivity | exact Hb]).
  apply Forall_cons_iff in Hv. destruct Hv as [Hv1 Hv]. cbn [map concat] in Hb. rewrite <- app_assoc in Hb.
  destruct (getbits_lsb 3 _ _ _ Hb Hv1) as [s1 [G B1]].
  cbn [length]. rewrite read_hufflens_S. unfold bind. rewrite G.
  exact (IH order (set_nth o v acc) s1 t (le_S_n _ _ Hl) Hv B1).
Qed.

(* the run-length coded code lengths *)
Inductive clsym := CLen (l : N) | C16 (e : N) | C17 (e : N) | C18 (e : N).

Definition clsym_num (c : clsym) : nat :=
  match c with CLen l => N.to_nat l | C16 _ => 16 | C17 _ => 17 | C18 _ => 18 end.

Definition clsym_ok (hlens : list N) (c : clsym) : Prop :=
  has_code hlens (clsym_num c) /\
  match c with
  | CLen l => (l < 16)%N | C16 e => (e < 4)%N | C17 e => (e < 8)%N | C18 e => (e < 128)%N
  end.

Definition clsym_bits (hlens : list N) (c : clsym) : list bool :=
  gcode hlens (clsym_num c) ++
  match c with CLen _ => [] | C16 e => lsb_bits 2 e | C17 e => lsb_bits 3 e | C18 e => lsb_bits 7 e end.

(* what the symbols denote: the list of code lengths (None: not a valid coding of `total` lengths) *)
Fixpoint expand (total : nat) (cs : list clsym) (acc : list N) : option (list N) :=
  match cs with
  | [] => if Nat.eqb (length acc) total then Some (rev acc) else None
  | c :: cs' =>
      if Nat.ltb (length acc) total then
        match c with
        | CLen l => expand total cs' (l :: acc)
        | C16 e => match acc with
                   | [] => None
                   | prev :: _ => expand total cs' (repeat prev (3 + N.to_nat e) ++ acc)
                   end
        | C17 e => expand total cs' (repeat 0%N (3 + N.to_nat e) ++ acc)
        | C18 e => expand total cs' (repeat 0%N (11 + N.to_nat e) ++ acc)
        end
      else None
  end.

(* every symbol adds at least one length, so a coding of `total` lengths has at most `total` symbols *)
Lemma expand_symbols total : forall cs acc lens,
    expand total cs acc = Some lens -> length cs + length acc <= total.
Proof.
  induction cs as [|c cs IH]; intros acc lens He; cbn [expand] in He.
  - destruct (Nat.eqb_spec (length acc) total) as [E|]; [|discriminate]. rewrite E. apply Nat.le_refl.
  - destruct (Nat.ltb (length acc) total); [|discriminate].
    destruct c as [l|e|e|e]; [| destruct acc as [|p a']; [discriminate|] | |];
      apply IH in He; rewrite ?app_length, ?repeat_length in He; cbn [length] in *; lia.
Qed.

Lemma read_lens_correct hlens total :
  table_ok true (mk_table hlens) = true ->
  forall cs f acc s t lens,
    Forall (clsym_ok hlens) cs ->
    expand total cs acc = Some lens ->
    length cs < f ->
    bits_of s = concat (map (clsym_bits hlens) cs) ++ t ->
    exists s', read_lens f (mk_table hlens) total acc s = Ok lens s' /\ bits_of s' = t.
Proof.
  intros Hok. induction cs as [|c cs IH]; intros [|f] acc s t lens Hc He Hf Hb; try (inversion Hf; fail);
    rewrite read_lens_S; cbn [expand] in He.
  - destruct (Nat.eqb_spec (length acc) total) as [<-|]; [|discriminate]. injection He as <-.
    rewrite read_lens_body_done. exists s. split; [reflexivity | exact Hb].
  - apply Forall_cons_iff in Hc. destruct Hc as [[Hcode Hext] Hc]. apply Nat.succ_lt_mono in Hf.
    destruct (Nat.ltb_spec (length acc) total) as [L|]; [|discriminate].
    cbn [map concat] in Hb. unfold clsym_bits at 1 in Hb. rewrite <- !app_assoc in Hb.
    destruct (dec_g true hlens (clsym_num c) s _ Hok Hcode Hb) as [s1 [D B1]].
    destruct c as [l | e | e | e]; cbn [clsym_num] in *; [| destruct acc as [|prev acc']; [discriminate|] | |].
    (* a length, or a run: its extra bits follow the symbol *)
    1: rewrite (read_lens_body_length _ _ _ _ _ _ _ L D), N2Nat.id by lia; exact (IH f _ s1 t lens Hc He Hf B1).
    all: destruct (getbits_lsb _ _ _ _ B1 Hext) as [s2 [G B2]].
    + rewrite (read_lens_body_16 _ _ _ _ _ _ _ L D _ _ _ _ eq_refl eq_refl G). exact (IH f _ s2 t lens Hc He Hf B2).
    + rewrite (read_lens_body_17 _ _ _ _ _ _ _ L D _ _ eq_refl G). exact (IH f _ s2 t lens Hc He Hf B2).
    + rewrite (read_lens_body_18 _ _ _ _ _ _ _ L D _ _ eq_refl G). exact (IH f _ s2 t lens Hc He Hf B2).
Qed.

Record dyn_header := {
  d_hlit : nat;              (* number of literal/length code lengths: 257..286 *)
  d_hdist : nat;             (* number of distance code lengths: 1..30 *)
  d_vs : list N;             (* the 3-bit lengths of the code-length code, in HUFFLEN_ORDER: 4..19 of them *)
  d_cs : list clsym          (* the run-length coded lengths *)
}.

Definition d_hlens (h : dyn_header) : list N := place HUFFLEN_ORDER (d_vs h) (repeat 0%N 19).

Definition header_bits (h : dyn_header) : list bool :=
  lsb_bits 5 (N.of_nat (d_hlit h - 257)) ++ lsb_bits 5 (N.of_nat (d_hdist h - 1))
  ++ lsb_bits 4 (N.of_nat (length (d_vs h) - 4))
  ++ concat (map (lsb_bits 3) (d_vs h)) ++ concat (map (clsym_bits (d_hlens h)) (d_cs h)).

(* a header the decoder accepts, denoting the code lengths `lens` *)
Definition header_ok (h : dyn_header) (lens : list N) : Prop :=
  257 <= d_hlit h /\ d_hlit h <= 286 /\ 1 <= d_hdist h /\ d_hdist h <= 30 /\
  4 <= length (d_vs h) /\ length (d_vs h) <= 19 /\ Forall (fun v => (v < 8)%N) (d_vs h) /\
  table_ok true (mk_table (d_hlens h)) = true /\
  Forall (clsym_ok (d_hlens h)) (d_cs h) /\
  expand (d_hlit h + d_hdist h) (d_cs h) [] = Some lens /\
  table_ok false (mk_table (skipn (d_hlit h) lens)) = true /\
  table_ok false (mk_table (firstn (d_hlit h) lens)) = true.

Lemma dynamic_tables_correct h lens s t :
  header_ok h lens ->
  bits_of s = header_bits h ++ t ->
  exists s', dynamic_tables s = Ok (mk_table (firstn (d_hlit h) lens), mk_table (skipn (d_hlit h) lens)) s'
             /\ bits_of s' = t.
Proof.
  intros [L1 [L2 [D1 [D2 [V1 [V2 [Vv [Hhl [Hcs [Hex [Hdok Hlok]]]]]]]]]]] Hb.
  unfold header_bits in Hb. rewrite <- !app_assoc in Hb.
  (* each count fits its field: 286 - 257 < 2 ^ 5, 30 - 1 < 2 ^ 5, 19 - 4 < 2 ^ 4, by computation *)
  destruct (getbits_offset 5 257 286 _ _ _ L1 L2 eq_refl Hb) as [hlit [s1 [G1 [E1 B1]]]].
  destruct (getbits_offset 5 1 30 _ _ _ D1 D2 eq_refl B1) as [hdist [s2 [G2 [E2 B2]]]].
  destruct (getbits_offset 4 4 19 _ _ _ V1 V2 eq_refl B2) as [hclen [s3 [G3 [E3 B3]]]].
  destruct (read_hufflens_correct (d_vs h) HUFFLEN_ORDER (repeat 0%N 19) s3 _ V2 Vv B3) as [s4 [R4 B4]].
  pose proof (expand_symbols _ _ _ _ Hex) as Hn. rewrite Nat.add_0_r in Hn.
  destruct (read_lens_correct (d_hlens h) _ Hhl (d_cs h) (d_hlit h + d_hdist h + 1) [] s4 t lens Hcs Hex) as [s5 [R5 B5]];
    [rewrite Nat.add_1_r; apply le_n_S, Hn | exact B4 |].
  exists s5. split; [|exact B5].
  rewrite dynamic_tables_eq. unfold dyn_body, bind. rewrite G1, G2, G3, E1, E2, E3. cbv zeta.
  rewrite (proj2 (Nat.ltb_ge 286 _) L2), (proj2 (Nat.ltb_ge 30 _) D2). cbn [orb]. rewrite R4.
  fold (d_hlens h). rewrite Hhl. cbn [negb]. rewrite R5, Hdok, Hlok. reflexivity.
Qed.

Lemma dynamic_block_content h lens xs f out s t :
  header_ok h lens ->
  Forall (gsym_ok (firstn (d_hlit h) lens) (skipn (d_hlit h) lens)) xs ->
  has_code (firstn (d_hlit h) lens) 256 -> length xs < f ->
  bits_of s = header_bits h ++ gblock_bits (firstn (d_hlit h) lens) (skipn (d_hlit h) lens) xs ++ t ->
  exists s', bind dynamic_tables (fun ld => codes f (fst ld) (snd ld) out) s
             = Ok (fold_left fsym_apply xs out) s' /\ bits_of s' = t.
Proof.
  intros Hh Hx Heob Hf Hb. destruct (dynamic_tables_correct h lens s _ Hh Hb) as [s4 [DT B4]].
  destruct Hh as (_ & _ & _ & _ & _ & _ & _ & _ & _ & _ & Hdok & Hlok).
  unfold bind. rewrite DT. exact (codes_gsymbols _ _ Hlok Hdok xs f out s4 t Hx Heob Hf B4).
Qed.
