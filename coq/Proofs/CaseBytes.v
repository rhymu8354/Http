(* CaseBytes.v -- the header-block parser is transparent to ASCII letter case: parsing the
   lower-cased bytes gives the lower-cased result (same answer, same consumed count, names and
   values lower-cased).  So two blocks equal up to letter case give header lists equal up to
   letter case (the link between C18's list-level theorems and the message bytes). *)
From Coq Require Import Lia.
From Http Require Import Model.Bytes Model.Utf8 Model.Headers Proofs.BytesLemmas Proofs.HeaderGrammarProofs
     Proofs.CaseLemmas.

(* a lead byte >= 128 is untouched, and every test on a continuation byte is a range above the
   letters; the recursion skips up to four bytes, hence the induction on a length bound *)
Lemma utf8_valid_lower_n n : forall s, length s <= n -> utf8_valid (lower s) = utf8_valid s.
Proof.
  induction n as [|n IH]; intros s Hn.
  - destruct s; [reflexivity|simpl in Hn; lia].
  - destruct s as [|b0 t]; [reflexivity|]. cbn [length] in Hn.
    cbn [lower map utf8_valid]. fold (lower t). rewrite ltb128_lower.
    destruct (N.ltb b0 128) eqn:A; [apply IH; lia|].
    rewrite (to_lower_big b0) by (apply N.ltb_ge; exact A). unfold is_cont.
    destruct (between 194 223 b0).
    { destruct t as [|b1 t1]; [reflexivity|]. cbn [lower map length] in *. fold (lower t1).
      rewrite between_to_lower by (right; left; reflexivity). rewrite IH by lia. reflexivity. }
    destruct (between 224 239 b0).
    { destruct t as [|b1 [|b2 t2]]; try reflexivity. cbn [lower map length] in *. fold (lower t2).
      rewrite !between_to_lower by (right; left; reflexivity). rewrite IH by lia. reflexivity. }
    destruct (between 240 244 b0); [|reflexivity].
    destruct t as [|b1 [|b2 [|b3 t3]]]; try reflexivity. cbn [lower map length] in *. fold (lower t3).
    rewrite !between_to_lower by (right; left; reflexivity). rewrite IH by lia. reflexivity.
Qed.

Lemma utf8_valid_lower s : utf8_valid (lower s) = utf8_valid s.
Proof. apply (utf8_valid_lower_n (length s)). apply le_n. Qed.

Lemma find_crlf_lower s : find_crlf (lower s) = find_crlf s.
Proof.
  induction s as [|a s IH]; [reflexivity|].
  destruct s as [|b t]; [reflexivity|].
  change (lower (a :: b :: t)) with (to_lower a :: to_lower b :: lower t).
  rewrite !find_crlf_cons2.
  rewrite (eqb_to_lower a CR), (eqb_to_lower b LF) by reflexivity.
  change (to_lower b :: lower t) with (lower (b :: t)). rewrite IH. reflexivity.
Qed.

Definition lower_hdr (h : header) : header := (lower (fst h), lower (snd h)).

Definition ures_lower (r : ures) : ures :=
  match r with UOk v c => UOk (lower v) c | r => r end.

Definition sres_lower (r : sres) : sres :=
  match r with SField h c => SField (lower_hdr h) c | r => r end.

Definition hres_lower (r : hres) : hres :=
  match r with
  | HComplete hs c => HComplete (map lower_hdr hs) c
  | HIncomplete hs c => HIncomplete (map lower_hdr hs) c
  | HError e => HError e
  end.

Lemma unfold_hdr_lower f : forall s v c,
  unfold_hdr f (lower s) (lower v) c = ures_lower (unfold_hdr f s v c).
Proof.
  induction f as [|f IH]; intros s v c; [reflexivity|].
  rewrite !unfold_step. rewrite find_crlf_lower.
  destruct (find_crlf s) as [lt|]; [|reflexivity]. cbv zeta.
  rewrite firstn_lower, utf8_valid_lower.
  destruct (negb (utf8_valid (firstn lt s))); [reflexivity|].
  destruct (firstn lt s) as [|b l] eqn:L; [reflexivity|].
  change (lower (b :: l)) with (to_lower b :: lower l). cbv beta iota. rewrite is_wsp_lower.
  destruct (is_wsp b); [|reflexivity].
  change (to_lower b :: lower l) with (lower (b :: l)).
  rewrite (forallb_lower is_vchar) by apply is_vchar_lower.
  destruct (negb (forallb is_vchar (b :: l))); [reflexivity|].
  rewrite skipn_lower. rewrite trim_lower.
  change [SP] with (lower [SP]). rewrite <- !lower_app. apply IH.
Qed.

Lemma hdr_step_lower lim s : hdr_step lim (lower s) = sres_lower (hdr_step lim s).
Proof.
  unfold hdr_step. destruct s as [|a s']; [reflexivity|].
  rewrite find_crlf_lower, length_lower.
  destruct (find_crlf (a :: s')) as [lt|].
  2:{ destruct (over_limit _ lim); reflexivity. }
  destruct (over_limit (lt + 2) lim); [reflexivity|].
  destruct lt as [|lt0]; [reflexivity|]. cbv zeta.
  rewrite firstn_lower, utf8_valid_lower.
  destruct (negb (utf8_valid (firstn (S lt0) (a :: s')))); [reflexivity|].
  rewrite (find_byte_lower COLON) by reflexivity.
  destruct (find_byte COLON (firstn (S lt0) (a :: s'))) as [k|]; [|reflexivity].
  rewrite firstn_lower, skipn_lower.
  rewrite (forallb_lower is_graphic) by apply is_graphic_lower.
  destruct (negb (forallb is_graphic _)); [reflexivity|].
  rewrite (forallb_lower is_vchar) by apply is_vchar_lower.
  destruct (negb (forallb is_vchar _)); [reflexivity|].
  rewrite skipn_lower. rewrite unfold_hdr_lower.
  destruct (unfold_hdr _ _ _ 0) as [|e|v c2]; try reflexivity.
  cbn [ures_lower sres_lower lower_hdr fst snd]. rewrite trim_lower. reflexivity.
Qed.

Lemma hdr_loop_lower f lim : forall s acc off,
  hdr_loop f lim (lower s) (map lower_hdr acc) off = hres_lower (hdr_loop f lim s acc off).
Proof.
  induction f as [|f IH]; intros s acc off; [reflexivity|].
  rewrite !hdr_loop_step. rewrite hdr_step_lower.
  destruct (hdr_step lim s) as [|e|c|h c]; try reflexivity.
  cbn [sres_lower]. rewrite skipn_lower.
  replace (map lower_hdr acc ++ [lower_hdr h]) with (map lower_hdr (acc ++ [h]))
    by (rewrite map_app; reflexivity).
  apply IH.
Qed.

Theorem hdr_parse_lower lim hs0 s :
  hdr_parse lim (map lower_hdr hs0) (lower s) = hres_lower (hdr_parse lim hs0 s).
Proof. unfold hdr_parse. rewrite length_lower. apply hdr_loop_lower. Qed.

Definition hres_ci (r r' : hres) : Prop :=
  match r, r' with
  | HComplete hs c, HComplete hs' c' => hdrs_ci hs hs' /\ c = c'
  | HIncomplete hs c, HIncomplete hs' c' => hdrs_ci hs hs' /\ c = c'
  | HError e, HError e' => e = e'
  | _, _ => False
  end.

Lemma hdrs_ci_lower hs hs' : hdrs_ci hs hs' <-> map lower_hdr hs = map lower_hdr hs'.
Proof.
  split.
  - induction 1 as [|h h' hs hs' [H1 H2] _ IH]; [reflexivity|].
    cbn [map]. unfold lower_hdr at 1 3. unfold ci_eq in H1, H2. rewrite H1, H2, IH. reflexivity.
  - revert hs'. induction hs as [|h hs IH]; intros [|h' hs'] H; try discriminate; constructor;
      injection H as H1 H2 H3; [split; assumption|apply IH; exact H3].
Qed.

Lemma hres_ci_of_lower r r' : hres_lower r = hres_lower r' -> hres_ci r r'.
Proof.
  destruct r as [hs c|hs c|e], r' as [hs' c'|hs' c'|e']; try discriminate;
    cbn [hres_lower hres_ci]; intros H.
  - injection H as Hhs Hc. split; [apply hdrs_ci_lower; exact Hhs|exact Hc].
  - injection H as Hhs Hc. split; [apply hdrs_ci_lower; exact Hhs|exact Hc].
  - injection H as He. exact He.
Qed.

Theorem hdr_parse_ci lim hs0 hs0' s s' :
  hdrs_ci hs0 hs0' -> ci_eq s s' -> hres_ci (hdr_parse lim hs0 s) (hdr_parse lim hs0' s').
Proof.
  intros H0 Hs. apply hres_ci_of_lower. apply hdrs_ci_lower in H0. unfold ci_eq in Hs.
  rewrite <- !hdr_parse_lower, H0, Hs. reflexivity.
Qed.
