(* C09Boundary.v -- a completed parse consumes exactly one message. *)
From Coq Require Import Lia.
From Http Require Import Model.Bytes Model.Request Model.Response Proofs.BytesLemmas
     Proofs.ReqResume Proofs.C01Request Proofs.RespResume.

Section Requests.
  Variable uri : Type.
  Variable uri_parse : bytes -> option uri.
  Notation P := (req_parse uri uri_parse).

  Theorem request_suffix_irrelevant cfg m st c sfx :
    P cfg req_init m = (st, Complete c) ->
    c <= length m /\ P cfg req_init (m ++ sfx) = (st, Complete c).
  Proof.
    intros H. pose proof (req_parse_spec uri uri_parse cfg req_init m sfx (req_init_ok uri cfg)) as HS.
    rewrite H in HS. exact HS.
  Qed.

  Theorem request_complete_local cfg x st c :
    P cfg req_init x = (st, Complete c) -> P cfg req_init (firstn c x) = (st, Complete c).
  Proof.
    rewrite !req_parse_eq.
    destruct (req_dispatch uri uri_parse cfg req_init x) as [s [k|k|e]] eqn:E.
    - intros H. inversion H; subst. rewrite (req_dispatch_firstn _ _ _ _ _ _ _ E). reflexivity.
    - destruct (presented_ok _ _ _); discriminate.
    - discriminate.
  Qed.

  (* pipelining: splitting a buffer with fresh parsers *)
  Fixpoint req_split (cfg : rcfg) (fuel : nat) (buf : bytes) : list (req_state uri * nat) :=
    match fuel with
    | O => []
    | S f =>
      match buf with
      | [] => []
      | _ =>
        match P cfg req_init buf with
        | (st, Complete c) => (st, c) :: req_split cfg f (skipn c buf)
        | _ => []
        end
      end
    end.

  Definition parses_alone (cfg : rcfg) (m : bytes) : Prop :=
    m <> [] /\ exists st, P cfg req_init m = (st, Complete (length m)).

  Lemma req_split_step cfg f buf :
    buf <> [] ->
    req_split cfg (S f) buf =
    match P cfg req_init buf with
    | (st, Complete c) => (st, c) :: req_split cfg f (skipn c buf)
    | _ => []
    end.
  Proof. destruct buf; [congruence|reflexivity]. Qed.

  Theorem request_pipeline cfg ms :
    Forall (parses_alone cfg) ms ->
    req_split cfg (length ms) (concat ms) =
    map (fun m => (fst (P cfg req_init m), length m)) ms.
  Proof.
    induction ms as [|m ms IH]; intros HF; [reflexivity|].
    inversion HF as [|? ? [Hne [st Hm]] HF']; subst.
    cbn [length concat map].
    destruct (request_suffix_irrelevant cfg m st (length m) (concat ms) Hm) as [_ Hs].
    rewrite req_split_step by (destruct m; [congruence|discriminate]).
    rewrite Hs, Hm. cbn [fst]. f_equal.
    rewrite skipn_app_exact. apply IH. exact HF'.
  Qed.
End Requests.

Theorem response_suffix_irrelevant m st c sfx :
  resp_parse resp_init m = (st, Complete c) ->
  c <= length m /\
  exists st' c', resp_parse resp_init (m ++ sfx) = (st', Complete c') /\ same_response st c st' c'.
Proof.
  intros H. pose proof (resp_parse_spec resp_init m sfx rwf_init) as HS. unfold rspec in HS.
  rewrite H in HS. exact HS.
Qed.

(* boundary of a completed response parse: consumed minus trailing data *)
Definition boundary (st : resp_state) (c : nat) : nat := c - length (s_trailer st).

Fixpoint resp_split (fuel : nat) (buf : bytes) : list (resp_state * nat) :=
  match fuel with
  | O => []
  | S f =>
    match buf with
    | [] => []
    | _ =>
      match resp_parse resp_init buf with
      | (st, Complete c) => (st, boundary st c) :: resp_split f (skipn (boundary st c) buf)
      | _ => []
      end
    end
  end.

Definition same_message (a b : resp_state * nat) : Prop :=
  s_code (fst a) = s_code (fst b) /\ s_reason (fst a) = s_reason (fst b) /\
  s_headers (fst a) = s_headers (fst b) /\ s_body (fst a) = s_body (fst b) /\ snd a = snd b.

Definition resp_parses_alone (m : bytes) : Prop :=
  m <> [] /\ exists st, resp_parse resp_init m = (st, Complete (length m)) /\ s_trailer st = [].

Lemma resp_split_step f buf :
  buf <> [] ->
  resp_split (S f) buf =
  match resp_parse resp_init buf with
  | (st, Complete c) => (st, boundary st c) :: resp_split f (skipn (boundary st c) buf)
  | _ => []
  end.
Proof. destruct buf; [congruence|reflexivity]. Qed.

Theorem response_pipeline ms :
  Forall resp_parses_alone ms ->
  Forall2 same_message (resp_split (length ms) (concat ms))
          (map (fun m => (fst (resp_parse resp_init m), length m)) ms).
Proof.
  induction ms as [|m ms IH]; intros HF; [constructor|].
  inversion HF as [|? ? [Hne [st [Hm Htr]]] HF']; subst.
  cbn [length concat map].
  destruct (response_suffix_irrelevant m st (length m) (concat ms) Hm) as [_ [st' [c' [Hs Hsame]]]].
  rewrite resp_split_step by (destruct m; [congruence|discriminate]).
  rewrite Hs, Hm. cbn [fst].
  destruct Hsame as [A1 [A2 [A3 [A4 A5]]]]. rewrite Htr in A5. cbn [length] in A5.
  assert (Hb : boundary st' c' = length m) by (unfold boundary; lia).
  rewrite Hb. constructor.
  - unfold same_message. cbn [fst snd]. repeat split; congruence.
  - rewrite skipn_app_exact. apply IH. exact HF'.
Qed.
