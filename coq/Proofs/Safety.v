(* Safety.v -- the side conditions under which the Rust code would panic are never met
   (C06, for the crate's own parsing code), and buffer growth / reservations are bounded by
   the bytes presented (C07).  In order: the request parser (consumed <= presented, the body never
   longer than declared, reservations); the same bounds for the chunk decoder and the response
   parser; the positions at which the crate slices a str are char boundaries. *)
From Coq Require Import Lia.
From Http Require Import Model.Bytes Model.Utf8 Model.Num Model.Headers Model.Request
     Model.Chunked Model.Response Proofs.BytesLemmas Proofs.FeedGeneric Proofs.ReqResume
     Proofs.ChunkResume Proofs.RespResume Proofs.Utf8Lemmas.

Section Req.
  Variable uri : Type.
  Variable uri_parse : bytes -> option uri.
  Notation D := (req_dispatch uri uri_parse).
  Notation P := (req_parse uri uri_parse).

  Theorem req_parse_consumed cfg st buf st1 c :
    P cfg st buf = (st1, Complete c) \/ P cfg st buf = (st1, Incomplete c) -> c <= length buf.
  Proof.
    rewrite req_parse_eq. pose proof (req_dispatch_bound uri uri_parse cfg st buf) as H.
    destruct (D cfg st buf) as [s [k|k|e]]; [|destruct (presented_ok _ _ _)|];
      intros [E|E]; inversion E; subst; exact (H _ _ eq_refl).
  Qed.

  (* `content_length - self.body.len()` never underflows: in the body phase the body is
     never longer than the declared length *)
  Definition body_inv (st : req_state uri) : Prop :=
    match r_phase st with
    | PBody n => (N.of_nat (length (r_body st)) <= n)%N
    | _ => r_body st = []
    end.

  (* the invariant holds of s, whose body is that of st and at most `room` bytes more *)
  Definition body_grown (st : req_state uri) (room : nat) (s : req_state uri) : Prop :=
    body_inv s /\ length (r_body s) <= length (r_body st) + room.

  (* a later phase, run on the rest of the buffer from a state that holds the same body *)
  Lemma body_grown_shift st st' c (buf : bytes) r :
    unless_rejected (body_grown st' (length (skipn c buf))) r -> r_body st' = r_body st ->
    unless_rejected (body_grown st (length buf)) (shift uri c r).
  Proof.
    intros H Hb. assert (G : forall s, body_grown st' (length (skipn c buf)) s -> body_grown st (length buf) s).
    { intros s [Hi Hl]. split; [exact Hi|]. rewrite Hb, skipn_length in Hl. lia. }
    destruct r as [s [k|k|e]]; cbn [unless_rejected shift] in *.
    - exact (G s H).
    - exact (G s H).
    - exact I.
  Qed.

  Lemma req_body_inv st n buf :
    r_phase st = PBody n -> body_inv st ->
    unless_rejected (body_grown st (length buf)) (req_body uri st n buf).
  Proof.
    intros Hph Hinv. unfold body_inv in Hinv. rewrite Hph in Hinv.
    destruct (req_body_view uri st n buf) as [k Hk Hl|Hlt];
      unfold unless_rejected, body_grown, body_inv; cbn [add_body r_phase r_body]; rewrite Hph.
    - rewrite app_length, firstn_length. split; lia.
    - rewrite app_length. split; lia.
  Qed.

  Lemma req_headers_inv cfg st buf :
    r_body st = [] -> unless_rejected (body_grown st (length buf)) (req_headers uri cfg st buf).
  Proof.
    intros Hb.
    destruct (req_headers_view uri cfg st buf) as [| |hs c t _ _| |hs c t _ _ _| | |hs c t v n t2 _ _ _ _ _];
      try exact I; [split; [exact Hb|apply Nat.le_add_r]..|].
    eapply body_grown_shift; [apply req_body_inv; [reflexivity|]|reflexivity].
    unfold body_inv. cbn [body_state r_phase r_body]. rewrite Hb. apply N.le_0_l.
  Qed.

  Theorem req_dispatch_inv cfg st buf st1 o :
    body_inv st -> D cfg st buf = (st1, o) ->
    match o with
    | Reject _ => True
    | _ => body_inv st1 /\ length (r_body st1) <= length (r_body st) + length buf
    end.
  Proof.
    intros Hinv E.
    assert (H : unless_rejected (body_grown st (length buf)) (D cfg st buf)).
    { pose proof Hinv as Hb. unfold body_inv in Hb. unfold req_dispatch.
      revert Hb. destruct (r_phase st) as [| |n] eqn:Hph; intros Hb.
      - destruct (req_line_view uri uri_parse cfg st buf) as [| | | | | |e t m u _ _ _ _ _]; try exact I.
        + split; [exact Hinv|apply Nat.le_add_r].
        + eapply body_grown_shift; [apply req_headers_inv; exact Hb|reflexivity].
      - apply req_headers_inv. exact Hb.
      - apply req_body_inv; assumption. }
    rewrite E in H. destruct o; exact H.
  Qed.

  Lemma req_parse_inv cfg st buf st1 o :
    body_inv st -> P cfg st buf = (st1, o) -> match o with Reject _ => True | _ => body_inv st1 end.
  Proof.
    intros Hinv. rewrite req_parse_eq.
    pose proof (req_dispatch_inv cfg st buf) as H.
    destruct (D cfg st buf) as [s [k|k|e]]; [|destruct (presented_ok _ _ _)|]; intros E; inversion E; subst;
      try exact I; exact (proj1 (H _ _ Hinv eq_refl)).
  Qed.

  Lemma req_reserve_headers cfg st buf n :
    r_phase st = PHeaders -> req_reserve uri cfg st buf = Some n -> (n <= N.of_nat (length buf))%N.
  Proof.
    unfold req_reserve. intros ->. cbv beta zeta iota. pose proof (strip_cr_length buf).
    destruct (hdr_parse _ _ _) as [hs c| |]; try discriminate.
    destruct (header_value hs CONTENT_LENGTH) as [v|]; [|discriminate].
    destruct (parse_dec v) as [n0|]; [|discriminate]. intros [= <-]. lia.
  Qed.

  (* Vec::reserve is asked for at most the number of bytes presented to the call
     (`declared.min(raw_message.len())` in the crate), whatever the declared Content-Length *)
  Theorem req_reserve_bounded cfg st buf n :
    req_reserve uri cfg st buf = Some n -> (n <= N.of_nat (length buf))%N.
  Proof.
    destruct (r_phase st) eqn:Hph; [|apply req_reserve_headers, Hph|unfold req_reserve; rewrite Hph; discriminate].
    unfold req_reserve. rewrite Hph. destruct (find_crlf buf) as [e|]; [|discriminate].
    (* the header phase runs on the rest of the buffer, and looks at the headers only *)
    intros H. apply (req_reserve_headers cfg (set_phase uri st PHeaders) (skipn (e + 2) buf)) in H;
      [|reflexivity]. rewrite skipn_length in H. lia.
  Qed.
End Req.

Theorem chunk_decode_consumed st buf st1 c :
  cwf st ->
  chunk_decode st buf = (st1, Complete c) \/ chunk_decode st buf = (st1, Incomplete c) ->
  c <= length buf.
Proof.
  intros Hwf. pose proof (chunk_decode_app st buf [] Hwf) as H.
  intros [E|E]; rewrite E in H; tauto.
Qed.

Theorem chunk_reserves_bounded f st buf :
  Forall (fun n => (n <= N.of_nat (length buf))%N) (chunk_reserves f st buf).
Proof.
  revert st buf. induction f as [|f IH]; intros st buf; [constructor|].
  cbn [chunk_reserves]. destruct (chunk_step st buf) as [st' c|st' c|st' c|e]; try constructor.
  assert (Hsub : Forall (fun n => (n <= N.of_nat (length buf))%N) (chunk_reserves f st' (skipn c buf))).
  { eapply Forall_impl; [|apply IH]. intros a Ha. cbv beta in Ha. rewrite skipn_length in Ha. lia. }
  destruct (c_phase st); try exact Hsub.
  destruct (c_phase st'); constructor; try exact Hsub; lia.
Qed.

(* the decoded buffer grows only by bytes of the input *)
Lemma chunk_step_buffer st buf :
  match chunk_step st buf with
  | CPart st' c | CWhole st' c | CInc st' c =>
      exists k, k <= c /\ length (c_buffer st') = length (c_buffer st) + k
  | CErr _ => True
  end.
Proof.
  unfold chunk_step. destruct (c_phase st) as [|needed| |].
  - unfold decode_size. destruct (find_crlf buf) as [e|]; [|exists 0; simpl; lia].
    cbv zeta. destruct (negb _); [exact I|]. destruct (parse_chunk_size _); [|exact I].
    exists 0. simpl. lia.
  - unfold decode_data. cbv zeta.
    set (k := if N.leb needed (N.of_nat (length buf)) then N.to_nat needed else length buf).
    assert (Hk : k <= length buf).
    { subst k. destruct (N.leb needed (N.of_nat (length buf))) eqn:E; [apply N.leb_le in E; lia|lia]. }
    destruct (N.eqb _ 0); exists k; cbn [c_buffer]; rewrite app_length, firstn_length; lia.
  - unfold decode_terminator. destruct buf as [|a [|b t]].
    + exists 0. simpl. lia.
    + destruct (N.eqb a CR); [exists 0; simpl; lia|exact I].
    + destruct (_ && _)%bool; [exists 0; simpl; lia|exact I].
  - unfold decode_trailer. destruct (hdr_parse None (c_trailer st) buf); try exact I;
      exists 0; simpl; lia.
Qed.

Theorem resp_parse_consumed st buf st1 c :
  rwf st ->
  resp_parse st buf = (st1, Complete c) \/ resp_parse st buf = (st1, Incomplete c) ->
  c <= length buf.
Proof.
  intros Hwf. pose proof (resp_parse_spec st buf [] Hwf) as H. unfold rspec in H.
  intros [E|E]; rewrite E in H; tauto.
Qed.

(* Rust's is_char_boundary: 0, len, or a byte that is not 10xxxxxx *)
Definition char_boundary (s : bytes) (i : nat) : Prop :=
  i = 0 \/ i = length s \/ exists b, nth_error s i = Some b /\ is_cont b = false.

Lemma utf8_valid_after_delim c s k :
  utf8_valid s = true -> (c < 128)%N -> find_byte c s = Some k -> utf8_valid (skipn (S k) s) = true.
Proof.
  intros Hv Hc Hf. destruct (find_byte_first _ _ _ Hf) as [E _].
  rewrite E in Hv. pose proof (utf8_valid_split _ _ _ Hc Hv) as Ha.
  rewrite (utf8_valid_app _ _ Ha) in Hv. cbn [utf8_valid] in Hv.
  apply N.ltb_lt in Hc. rewrite Hc in Hv. exact Hv.
Qed.

(* a first byte is below 128 or at least 194; continuation bytes are 128..191 *)
Lemma utf8_valid_head b t : utf8_valid (b :: t) = true -> is_cont b = false.
Proof.
  cbn [utf8_valid]. unfold is_cont. rewrite between_false. intros Hv.
  destruct (N.ltb_spec b 128) as [B1|B1]; [left; exact B1|]. right.
  destruct (between 194 223 b) eqn:B2; [apply between_spec in B2; lia|].
  destruct (between 224 239 b) eqn:B3; [apply between_spec in B3; lia|].
  destruct (between 240 244 b) eqn:B4; [apply between_spec in B4; lia|discriminate].
Qed.

(* the delimiter positions used for str slicing (find(' '), find(':'), find(';'), find('/'),
   find('=')) and the positions just after them are char boundaries *)
Theorem ascii_delimiter_boundaries s c i :
  utf8_valid s = true -> (c < 128)%N -> find_byte c s = Some i ->
  char_boundary s i /\ char_boundary s (S i).
Proof.
  intros Hv Hc Hf. pose proof (utf8_valid_after_delim _ _ _ Hv Hc Hf) as Hr.
  pose proof (find_byte_bound _ _ _ Hf) as B. destruct (find_byte_first _ _ _ Hf) as [E _].
  set (a := firstn i s) in *. set (r := skipn (S i) s) in *.
  assert (La : length a = i) by (apply firstn_length_le; lia).
  clearbody a r. subst s i. split; right.
  - right. exists c. rewrite nth_error_app2, Nat.sub_diag by apply le_n.
    split; [reflexivity|apply between_false; left; exact Hc].
  - destruct r as [|b t].
    + left. rewrite app_length. cbn [length]. lia.
    + right. exists b. rewrite nth_error_app2 by lia.
      replace (S (length a) - length a) with 1 by lia.
      split; [reflexivity|exact (utf8_valid_head _ _ Hr)].
Qed.
