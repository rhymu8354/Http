(* CheckedReuse.v -- C06 for a Response or Request value that is kept and fed one message after the
   other (the documentation says to construct a new value; a caller on a persistent connection may
   well not, and the `reuseresp` cases of the correspondence run do not).  For Response the states
   met are wider than resp_inv (resp_inv2 below); for Request body_inv still holds after every answer
   but a rejection, so c_req_parse_ok applies as it stands. *)
From Coq Require Import Lia.
From Http Require Import Model.Bytes Model.Num Model.Headers Model.Request
     Model.Chunked Model.Response Model.Checked
     Proofs.FeedGeneric Proofs.ChunkResume Proofs.Numeric Proofs.HeaderGrammarProofs
     Proofs.HeaderAlgebra Proofs.CaseLemmas Proofs.Rewrite Proofs.Safety Proofs.CheckedOk.

(* a joined list of two or more values is not a number *)
Lemma parse_dec_joined x y r : parse_dec (join [COMMA] (x :: y :: r)) = None.
Proof.
  apply parse_dec_nondigit.
  change (join [COMMA] (x :: y :: r)) with (x ++ COMMA :: join [COMMA] (y :: r)).
  rewrite forallb_app. cbn [forallb]. replace (is_digit COMMA) with false by reflexivity.
  cbn [andb]. apply andb_false_r.
Qed.

(* the collection pins the body length: its first Content-Length is the body length *)
Definition pinned (hs : list header) (body : bytes) : Prop :=
  exists rest, header_multi_value hs CONTENT_LENGTH = show_dec (N.of_nat (length body)) :: rest.

Lemma pinned_app hs more body : pinned hs body -> pinned (hs ++ more) body.
Proof. intros [rest E]. unfold pinned. rewrite hmv_app, E. eexists. reflexivity. Qed.

Lemma pinned_length hs body v n :
  pinned hs body -> (N.of_nat (length body) <= USIZE_MAX)%N ->
  header_value hs CONTENT_LENGTH = Some v -> parse_dec v = Some n -> n = N.of_nat (length body).
Proof.
  intros [rest E] Hsz. unfold header_value. rewrite E. intros H. inversion H; subst v. clear H.
  destruct rest as [|y r].
  - cbn [join]. rewrite parse_show_dec by exact Hsz. intros H. inversion H. reflexivity.
  - change (parse_dec (join [COMMA] (show_dec (N.of_nat (length body)) :: y :: r)) = Some n -> n = N.of_nat (length body)).
    rewrite parse_dec_joined. discriminate.
Qed.

Lemma pinned_has_cl hs body : pinned hs body -> header_value hs CONTENT_LENGTH <> None.
Proof. intros [rest E]. unfold header_value. rewrite E. discriminate. Qed.

(* After a chunked message the value holds a non-empty body while the parser is back in its first
   phase.  `content_length - self.body.len()` of the NEXT message cannot underflow all the same: the
   headers of the finished message stay in the collection, and the Content-Length that de-chunking
   added (equal to the body length) is joined with any new Content-Length -- two values give a text
   with a comma, which is rejected; none gives exactly the body length. *)
Definition resp_inv2 (st : resp_state) : Prop :=
  match s_phase st with
  | SFixedBody n => (N.of_nat (length (s_body st)) <= n)%N
  | SChunkedBody cs => cwf cs /\ header_value (s_headers st) CONTENT_LENGTH = None
  | _ => s_body st = [] \/ pinned (s_headers st) (s_body st)
  end.

Lemma resp_inv2_init : resp_inv2 resp_init.
Proof. left. reflexivity. Qed.

Definition body_ok (st : resp_state) : Prop := (N.of_nat (length (s_body st)) <= ISIZE_MAX)%N.

Lemma empty_or_pinned_app hs more body :
  body = [] \/ pinned hs body -> body = [] \/ pinned (hs ++ more) body.
Proof. intros [E|P]; [left; exact E|right; apply pinned_app, P]. Qed.

(* with such headers, a Content-Length that is accepted later is the body length, or the body is empty *)
Lemma pinned_covers hs body :
  body = [] \/ pinned hs body -> (N.of_nat (length body) <= ISIZE_MAX)%N -> declared_covers hs body.
Proof.
  intros [E|P] Hsz rem hs' c v n HP HV PD; [rewrite E; apply N.le_0_l|].
  pose proof (hdr_parse_appends None hs rem) as App. rewrite HP in App. destruct App as [more ->].
  rewrite (pinned_length _ _ v n (pinned_app _ more _ P) (isize_le_usize _ Hsz) HV PD). apply N.le_refl.
Qed.

Lemma unless_rejected_rshift Q k r : unless_rejected Q r -> unless_rejected Q (rshift k r).
Proof. exact (unless_rejected_gshift resp_state Q k r). Qed.

Lemma resp_fixed_inv2 st n buf :
  (N.of_nat (length (s_body st)) <= n)%N -> unless_rejected resp_inv2 (resp_fixed st n buf).
Proof.
  intros H. unfold resp_fixed.
  destruct (N.leb _ _) eqn:E; unfold unless_rejected, resp_inv2; cbn [s_phase s_body]; rewrite app_length.
  - apply N.leb_le in E. rewrite firstn_length. lia.
  - apply N.leb_gt in E. lia.
Qed.

Lemma resp_chunked_inv2 st cs buf :
  cwf cs -> header_value (s_headers st) CONTENT_LENGTH = None ->
  unless_rejected resp_inv2 (resp_chunked st cs buf).
Proof.
  intros Hwf Hcl. unfold resp_chunked. pose proof (chunk_decode_app cs buf [] Hwf) as A.
  destruct (chunk_decode cs buf) as [cs' [k|k|e]]; [| |exact I].
  - (* complete: the rewritten headers pin the body *)
    right. exists []. apply dechunk_content_length. exact Hcl.
  - split; [exact (proj1 (proj2 A))|exact Hcl].
Qed.

Lemma resp_headers_inv2 st buf :
  (s_body st = [] \/ pinned (s_headers st) (s_body st)) -> body_ok st ->
  unless_rejected resp_inv2 (resp_headers st buf).
Proof.
  intros Hinv Hsz. pose proof (pinned_covers _ _ Hinv Hsz) as Hcov. unfold resp_headers.
  pose proof (hdr_parse_appends None (s_headers st) buf) as App.
  destruct (hdr_parse None (s_headers st) buf) as [hs k|hs k|e] eqn:HP; [| |exact I];
    destruct App as [more ->]; [|exact (empty_or_pinned_app _ more _ Hinv)].
  destruct (header_value (s_headers st ++ more) CONTENT_LENGTH) as [v|] eqn:HV.
  - destruct (parse_dec v) as [n|] eqn:PD; [|exact I].
    apply unless_rejected_rshift, resp_fixed_inv2. exact (Hcov _ _ _ _ _ HP HV PD).
  - destruct (has_header_token (s_headers st ++ more) TRANSFER_ENCODING CHUNKED);
      [|exact (empty_or_pinned_app _ more _ Hinv)].
    apply unless_rejected_rshift, resp_chunked_inv2; [exact cwf_init|exact HV].
Qed.

Lemma resp_parse_inv2 st buf : resp_inv2 st -> body_ok st -> unless_rejected resp_inv2 (resp_parse st buf).
Proof.
  unfold resp_inv2 at 1, resp_parse. destruct (s_phase st) as [| |n|cs] eqn:Hph; intros Hinv Hsz.
  - unfold resp_line.
    destruct (find_crlf buf) as [e|]; [|unfold unless_rejected, resp_inv2; rewrite Hph; exact Hinv].
    destruct (negb _); [exact I|].
    destruct (parse_status_line _) as [[code reason]|er]; [|exact I].
    apply unless_rejected_rshift, resp_headers_inv2; [exact Hinv|exact Hsz].
  - apply resp_headers_inv2; assumption.
  - apply resp_fixed_inv2, Hinv.
  - apply resp_chunked_inv2; tauto.
Qed.

Theorem resp_inv2_preserved st buf st' o :
  resp_inv2 st -> body_ok st -> resp_parse st buf = (st', o) ->
  match o with Reject _ => True | _ => resp_inv2 st' end.
Proof.
  intros Hinv Hsz E. pose proof (resp_parse_inv2 st buf Hinv Hsz) as H. rewrite E in H.
  destruct o; exact H.
Qed.

(* every state of a value fed any number of messages, calls answered with a rejection excluded
   (the documentation leaves the value unspecified then) *)
Inductive resp_reach2 : resp_state -> Prop :=
| resp_reach2_init : resp_reach2 resp_init
| resp_reach2_step st buf st' o :
    resp_reach2 st -> body_ok st -> resp_parse st buf = (st', o) ->
    (match o with Reject _ => False | _ => True end) -> resp_reach2 st'.

Lemma resp_reach2_inv st : resp_reach2 st -> resp_inv2 st.
Proof.
  induction 1 as [|st buf st' o _ IH Hsz E Ho]; [apply resp_inv2_init|].
  pose proof (resp_inv2_preserved _ _ _ _ IH Hsz E) as R. destruct o; try exact R; contradiction.
Qed.

Lemma resp_inv2_pre st : resp_inv2 st -> body_ok st -> resp_pre st.
Proof.
  unfold resp_inv2, resp_pre, body_ok. destruct (s_phase st); trivial; [apply pinned_covers..|tauto].
Qed.

(* Response::parse on a value that has been fed any number of messages: no operation fails, and
   the answer is the pure model's *)
Theorem c_resp_parse_ok_across_messages st raw :
  resp_inv2 st -> resp_fits st raw ->
  cok_roeq (c_resp_parse st raw) (resp_parse st raw).
Proof.
  intros Hinv Hfit. apply c_resp_parse_pre; [apply resp_inv2_pre; [exact Hinv|]|exact Hfit].
  destruct Hfit as [F1 _]. unfold body_ok. lia.
Qed.

Theorem c_resp_parse_reused st raw :
  resp_reach2 st -> resp_fits st raw -> cok_roeq (c_resp_parse st raw) (resp_parse st raw).
Proof. intros R. apply c_resp_parse_ok_across_messages. apply resp_reach2_inv. exact R. Qed.

Section ReqReuse.
  Variable uri : Type.
  Variable uri_parse : bytes -> option uri.

  Inductive req_reach2 (cfg : rcfg) : req_state uri -> Prop :=
  | req_reach2_init : req_reach2 cfg req_init
  | req_reach2_step st buf st' o :
      req_reach2 cfg st -> req_parse uri uri_parse cfg st buf = (st', o) ->
      (match o with Reject _ => False | _ => True end) -> req_reach2 cfg st'.

  Lemma req_reach2_inv cfg st : req_reach2 cfg st -> body_inv uri st.
  Proof.
    induction 1 as [|st buf st' o _ IH E Ho]; [reflexivity|].
    pose proof (req_parse_inv uri uri_parse cfg st buf st' o IH E) as H. destruct o; tauto.
  Qed.

  Theorem c_req_parse_reused cfg st raw :
    req_reach2 cfg st -> fits (length (r_body st)) raw ->
    c_req_parse uri uri_parse cfg st raw = COk (req_parse uri uri_parse cfg st raw).
  Proof. intros R. apply c_req_parse_ok. apply (req_reach2_inv cfg). exact R. Qed.
End ReqReuse.
