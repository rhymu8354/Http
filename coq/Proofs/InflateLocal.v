(* InflateLocal.v -- the stream decoders of Model/Inflate.v read their input strictly left to
   right and byte by byte:

     local p :  whenever p succeeds it has fetched a prefix c of the pending bytes; on ANY
                other continuation of c it gives the same answer (and leaves that continuation),
                and on every strict prefix of c it stops with Eof.

   From this: a truncated stream is never accepted (C15), what follows a stream never
   influences its decoding, so altering the trailer fields alone cannot turn a failure of
   the checks into success (C15), and success pins the stored checksums to the returned
   content (C15).  Also: more fuel never changes a successful answer.

   Every decoder is built from getbit, getbyte and align by bind, ret and case distinctions
   on values already read.  So each is written once in that form (the *_S and *_eq equations)
   and one induction over that form (Section Related) serves every relation between decoders
   that those operations keep: locality, fuel monotonicity and, in InflateWf.v, well-formedness
   of the input state. *)
From Coq Require Import List NArith Arith Bool Lia.
From Http Require Import Model.Bytes Model.Inflate.
Import ListNotations.

Definition sprefix (c' c : bytes) : Prop := exists t, t <> [] /\ c = c' ++ t.

Lemma sprefix_nil_r c' : ~ sprefix c' [].
Proof. intros [t [Ht E]]. symmetry in E. apply app_eq_nil in E. destruct E. contradiction. Qed.

Lemma sprefix_app_inv c' c1 c2 :
  sprefix c' (c1 ++ c2) -> sprefix c' c1 \/ exists c2', c' = c1 ++ c2' /\ sprefix c2' c2.
Proof.
  intros [t [Ht E]].
  apply app_eq_app in E. destruct E as [l [[E1 E2] | [E1 E2]]].
  - destruct l as [|x l].
    + right. exists []. rewrite app_nil_r in *. split; [symmetry; exact E1|]. exists t. split; [exact Ht | symmetry; exact E2].
    + left. exists (x :: l). split; [discriminate | assumption].
  - right. exists l. split; [assumption|]. exists t. split; assumption.
Qed.

Definition local {A} (p : istate -> res A) : Prop :=
  forall cur rest a cur' rest',
    p (cur, rest) = Ok a (cur', rest') ->
    exists c, rest = c ++ rest' /\
      (forall y, p (cur, c ++ y) = Ok a (cur', y)) /\
      (forall c', sprefix c' c -> p (cur, c') = Eof).

Definition bind {A B} (p : istate -> res A) (f : A -> istate -> res B) : istate -> res B :=
  fun s => match p s with Ok a s1 => f a s1 | Eof => Eof | Bad => Bad end.

Definition ret {A} (a : A) : istate -> res A := fun s => Ok a s.

Lemma local_ext {A} (p q : istate -> res A) : (forall s, p s = q s) -> local q -> local p.
Proof.
  intros E Hq cur rest a cur' rest' H. rewrite E in H.
  destruct (Hq _ _ _ _ _ H) as [c [H1 [H2 H3]]]. exists c. split; [assumption|].
  split; intros; rewrite E; auto.
Qed.

Lemma fetched_at_most_one {A} (p : istate -> res A) cur rest a cur' rest' :
  (rest = rest' /\ forall y, p (cur, y) = Ok a (cur', y)) \/
  (exists b, rest = b :: rest' /\ p (cur, []) = Eof /\ forall y, p (cur, b :: y) = Ok a (cur', y)) ->
  exists c, rest = c ++ rest' /\
    (forall y, p (cur, c ++ y) = Ok a (cur', y)) /\
    (forall c', sprefix c' c -> p (cur, c') = Eof).
Proof.
  intros [[E X] | [b [E [T X]]]].
  - exists []. split; [exact E|]. split; [exact X|]. intros c' Hc. destruct (sprefix_nil_r _ Hc).
  - exists [b]. split; [exact E|]. split; [exact X|]. intros c' [t [Ht Et]].
    destruct c' as [|z c']; [exact T|]. destruct c'; destruct t; try discriminate. contradiction.
Qed.

Lemma local_ret {A} (a : A) : local (ret a).
Proof.
  intros cur rest a' cur' rest' H. apply fetched_at_most_one. left. inversion H. auto.
Qed.

Lemma local_bad {A} : local (fun _ => @Bad A).
Proof. intros cur rest a cur' rest' H. discriminate. Qed.

Lemma local_eof {A} : local (fun _ => @Eof A).
Proof. intros cur rest a cur' rest' H. discriminate. Qed.

Lemma local_bind {A B} (p : istate -> res A) (f : A -> istate -> res B) :
  local p -> (forall a, local (f a)) -> local (bind p f).
Proof.
  intros Hp Hf cur rest b cur' rest' H. unfold bind in H.
  destruct (p (cur, rest)) as [a [cur1 rest1]| |] eqn:E; try discriminate.
  destruct (Hp _ _ _ _ _ E) as [c1 [R1 [X1 T1]]].
  destruct (Hf a _ _ _ _ _ H) as [c2 [R2 [X2 T2]]].
  exists (c1 ++ c2). split; [rewrite R1, R2; apply app_assoc|]. split.
  - intros y. unfold bind. rewrite <- app_assoc, X1. apply X2.
  - intros c' Hc. unfold bind. destruct (sprefix_app_inv _ _ _ Hc) as [Hc1 | [c2' [E' Hc2]]].
    + rewrite (T1 _ Hc1). reflexivity.
    + subst c'. rewrite X1. apply T2. exact Hc2.
Qed.

Definition refines {A} (p q : istate -> res A) : Prop :=
  forall s a s', p s = Ok a s' -> q s = Ok a s'.

Lemma refines_refl {A} (p : istate -> res A) : refines p p.
Proof. intros s a s' H. exact H. Qed.

Lemma refines_bind {A B} (p p' : istate -> res A) (f f' : A -> istate -> res B) :
  refines p p' -> (forall a, refines (f a) (f' a)) -> refines (bind p f) (bind p' f').
Proof.
  intros Hp Hf s b s' H. unfold bind in *.
  destruct (p s) as [a s1| |] eqn:E; try discriminate.
  rewrite (Hp _ _ _ E). apply Hf. exact H.
Qed.

Lemma refines_ext {A} (p p' q q' : istate -> res A) :
  (forall s, p s = p' s) -> (forall s, q s = q' s) -> refines p' q' -> refines p q.
Proof. intros E1 E2 H s a s' H1. rewrite E2. apply H. rewrite <- E1. exact H1. Qed.

Lemma byte_bits_cons b : exists x l, byte_bits b = x :: l.
Proof. unfold byte_bits. simpl. eauto. Qed.

Lemma local_getbit : local getbit.
Proof.
  intros [|x cur] rest a cur' rest' H; apply fetched_at_most_one.
  - destruct rest as [|byte rest1]; [discriminate|]. right. exists byte. cbn [getbit] in *.
    destruct (byte_bits_cons byte) as [x [l E]]. rewrite E in *. inversion H. auto.
  - left. inversion H. auto.
Qed.

Lemma local_finish {A} (a : A) : local (fun s => Ok a (align s)).
Proof.
  intros cur rest a' cur' rest' H. apply fetched_at_most_one. left. inversion H. auto.
Qed.

Lemma getbits_S n s :
  getbits (S n) s = bind getbit (fun b => bind (getbits n) (fun v => ret (bit_val b + 2 * v)%N)) s.
Proof. reflexivity. Qed.

Lemma take_bytes_S n out s :
  take_bytes (S n) out s = bind getbyte (fun b => take_bytes n (b :: out)) s.
Proof. reflexivity. Qed.

Definition dec_step (c : N) (cs : list N) (syms : list nat) (code first index : N)
           (k : N -> N -> N -> istate -> res nat) : istate -> res nat :=
  bind getbit (fun b s1 =>
    let code := (2 * code + bit_val b)%N in
    if (N.leb first code && N.ltb code (first + c))%bool
    then match nth_error syms (N.to_nat (index + (code - first))) with
         | Some sym => Ok sym s1
         | None => Bad
         end
    else k code (2 * (first + c))%N (index + c)%N s1).

Lemma dec_sym_loop_cons c cs syms code first index s :
  dec_sym_loop (c :: cs) syms code first index s
  = dec_step c cs syms code first index (dec_sym_loop cs syms) s.
Proof. reflexivity. Qed.

Definition codes_body (k : bytes -> istate -> res bytes) (lit dist : htable) (out : bytes)
  : istate -> res bytes :=
  bind (dec_sym lit) (fun sym s1 =>
    if Nat.ltb sym 256 then k (N.of_nat sym :: out) s1
    else if Nat.eqb sym 256 then Ok out s1
    else if Nat.ltb 285 sym then Bad
    else bind (getbits (nth (sym - 257) LENGTH_EXTRA 0)) (fun e =>
         bind (dec_sym dist) (fun dsym s3 =>
           if Nat.ltb 29 dsym then Bad
           else bind (getbits (nth dsym DIST_EXTRA 0)) (fun e2 =>
                  k (copy_match_fast (N.to_nat (nth (sym - 257) LENGTH_BASE 0 + e)%N)
                                     (N.to_nat (nth dsym DIST_BASE 0 + e2)%N) out)) s3)) s1).

Lemma codes_S f lit dist out s :
  codes (S f) lit dist out s = codes_body (codes f lit dist) lit dist out s.
Proof. reflexivity. Qed.

Section CodesBody.
  Variables (k : bytes -> istate -> res bytes) (lit dist : htable) (out : bytes) (s s1 : istate) (sym : nat).
  Hypothesis D : dec_sym lit s = Ok sym s1.

  Lemma codes_body_literal : sym < 256 -> codes_body k lit dist out s = k (N.of_nat sym :: out) s1.
  Proof.
    intros H. unfold codes_body, bind. rewrite D, (proj2 (Nat.ltb_lt sym 256) H). reflexivity.
  Qed.

  Lemma codes_body_end : sym = 256 -> codes_body k lit dist out s = Ok out s1.
  Proof. intros ->. unfold codes_body, bind. rewrite D. reflexivity. Qed.

  Lemma codes_body_match e s2 dsym s3 e2 s4 :
    257 <= sym -> sym <= 285 ->
    getbits (nth (sym - 257) LENGTH_EXTRA 0) s1 = Ok e s2 ->
    dec_sym dist s2 = Ok dsym s3 -> dsym <= 29 ->
    getbits (nth dsym DIST_EXTRA 0) s3 = Ok e2 s4 ->
    codes_body k lit dist out s
    = k (copy_match_fast (N.to_nat (nth (sym - 257) LENGTH_BASE 0 + e)%N)
                         (N.to_nat (nth dsym DIST_BASE 0 + e2)%N) out) s4.
  Proof.
    intros L1 L2 G Dd D1 G2. unfold codes_body, bind.
    rewrite D, (proj2 (Nat.ltb_ge sym 256) (Nat.lt_le_incl _ _ L1)).
    rewrite (proj2 (Nat.eqb_neq sym 256) (Nat.neq_sym _ _ (Nat.lt_neq _ _ L1))), (proj2 (Nat.ltb_ge 285 sym) L2).
    rewrite G, Dd, (proj2 (Nat.ltb_ge 29 dsym) D1), G2. reflexivity.
  Qed.
End CodesBody.

Lemma read_hufflens_S o order n acc s :
  read_hufflens (o :: order) (S n) acc s
  = bind (getbits 3) (fun v => read_hufflens order n (set_nth o v acc)) s.
Proof. reflexivity. Qed.

Definition read_lens_body (k : list N -> istate -> res (list N)) (hl : htable) (total : nat)
           (acc : list N) : istate -> res (list N) :=
  if Nat.ltb (length acc) total then
    bind (dec_sym hl) (fun sym s1 =>
      if Nat.ltb sym 16 then k (N.of_nat sym :: acc) s1
      else if Nat.eqb sym 16 then
        match acc with
        | [] => Bad
        | prev :: _ => bind (getbits 2) (fun e => k (repeat prev (3 + N.to_nat e) ++ acc)) s1
        end
      else if Nat.eqb sym 17 then bind (getbits 3) (fun e => k (repeat 0%N (3 + N.to_nat e) ++ acc)) s1
      else if Nat.eqb sym 18 then bind (getbits 7) (fun e => k (repeat 0%N (11 + N.to_nat e) ++ acc)) s1
      else Bad)
  else if Nat.eqb (length acc) total then ret (rev acc)
  else fun _ => Bad.

Lemma read_lens_S f hl total acc s :
  read_lens (S f) hl total acc s = read_lens_body (read_lens f hl total) hl total acc s.
Proof.
  unfold read_lens_body. cbn [read_lens]. destruct (Nat.ltb (length acc) total); [reflexivity|].
  destruct (Nat.eqb (length acc) total); reflexivity.
Qed.

Lemma read_lens_body_done k hl acc s : read_lens_body k hl (length acc) acc s = Ok (rev acc) s.
Proof. unfold read_lens_body. rewrite Nat.ltb_irrefl, Nat.eqb_refl. reflexivity. Qed.

Section ReadLensBody.
  Variables (k : list N -> istate -> res (list N)) (hl : htable) (total : nat) (acc : list N)
            (s s1 : istate) (sym : nat).
  Hypothesis L : length acc < total.
  Hypothesis D : dec_sym hl s = Ok sym s1.

  Lemma read_lens_body_length : sym < 16 -> read_lens_body k hl total acc s = k (N.of_nat sym :: acc) s1.
  Proof.
    intros H. unfold read_lens_body, bind.
    rewrite (proj2 (Nat.ltb_lt _ _) L), D, (proj2 (Nat.ltb_lt sym 16) H). reflexivity.
  Qed.

  (* the three run symbols: the count follows in e *)
  Lemma read_lens_body_16 prev acc' e s2 :
    sym = 16 -> acc = prev :: acc' -> getbits 2 s1 = Ok e s2 ->
    read_lens_body k hl total acc s = k (repeat prev (3 + N.to_nat e) ++ acc) s2.
  Proof.
    intros -> E G. unfold read_lens_body, bind. rewrite (proj2 (Nat.ltb_lt _ _) L), D. subst acc.
    cbn [Nat.ltb Nat.leb Nat.eqb]. rewrite G. reflexivity.
  Qed.

  Lemma read_lens_body_17 e s2 :
    sym = 17 -> getbits 3 s1 = Ok e s2 ->
    read_lens_body k hl total acc s = k (repeat 0%N (3 + N.to_nat e) ++ acc) s2.
  Proof.
    intros -> G. unfold read_lens_body, bind. rewrite (proj2 (Nat.ltb_lt _ _) L), D.
    cbn [Nat.ltb Nat.leb Nat.eqb]. rewrite G. reflexivity.
  Qed.

  Lemma read_lens_body_18 e s2 :
    sym = 18 -> getbits 7 s1 = Ok e s2 ->
    read_lens_body k hl total acc s = k (repeat 0%N (11 + N.to_nat e) ++ acc) s2.
  Proof.
    intros -> G. unfold read_lens_body, bind. rewrite (proj2 (Nat.ltb_lt _ _) L), D.
    cbn [Nat.ltb Nat.leb Nat.eqb]. rewrite G. reflexivity.
  Qed.
End ReadLensBody.

Definition dyn_body : istate -> res (htable * htable) :=
  bind (getbits 5) (fun hlit => bind (getbits 5) (fun hdist => bind (getbits 4) (fun hclen =>
    let nlit := (N.to_nat hlit + 257) in
    let ndist := (N.to_nat hdist + 1) in
    if (Nat.ltb 286 nlit || Nat.ltb 30 ndist)%bool then fun _ => Bad
    else bind (read_hufflens HUFFLEN_ORDER (N.to_nat hclen + 4) (repeat 0%N 19)) (fun hlens =>
      let hl := mk_table hlens in
      if negb (table_ok true hl) then fun _ => Bad
      else bind (read_lens (nlit + ndist + 1) hl (nlit + ndist) []) (fun lens =>
        let dist := mk_table (skipn nlit lens) in
        let lit := mk_table (firstn nlit lens) in
        if negb (table_ok false dist) then fun _ => Bad
        else if negb (table_ok false lit) then fun _ => Bad
        else ret (lit, dist)))))).

(* The two sides differ only in where the argument of an `if` between decoders stands, so the
   equation goes through each bind and each `if` in turn. *)
Lemma bind_eq {A B} (p : istate -> res A) (f g : A -> istate -> res B) s :
  (forall a s1, f a s1 = g a s1) ->
  match p s with Ok a s1 => f a s1 | Eof => Eof | Bad => Bad end = bind p g s.
Proof. intros H. unfold bind. destruct (p s); auto. Qed.

Lemma if_eq {A B} (b : bool) (x y : B) (f g : A -> B) s :
  x = f s -> y = g s -> (if b then x else y) = (if b then f else g) s.
Proof. intros -> ->. destruct b; reflexivity. Qed.

(* nlit and ndist are abstracted before their `let`s are expanded: every step on a goal pays for
   each copy of the unary numerals 257 and 286 in it *)
Lemma dynamic_tables_eq s : dynamic_tables s = dyn_body s.
Proof.
  unfold dynamic_tables, dyn_body.
  apply bind_eq; intros hlit s1. apply bind_eq; intros hdist s2. apply bind_eq; intros hclen s3.
  generalize (N.to_nat hlit + 257) (N.to_nat hdist + 1). intros nlit ndist. cbv beta zeta.
  apply if_eq; [reflexivity|]. apply bind_eq; intros hlens s4.
  apply if_eq; [reflexivity|]. apply bind_eq; intros lens s5.
  apply if_eq; [reflexivity|]. apply if_eq; reflexivity.
Qed.

Definition stored_body (out : bytes) : istate -> res bytes :=
  bind (fun s => Ok tt (align s)) (fun _ =>
  bind getbyte (fun l0 => bind getbyte (fun l1 => bind getbyte (fun n0 => bind getbyte (fun n1 =>
    if N.eqb ((l0 + 256 * l1) + (n0 + 256 * n1)) 65535
    then take_bytes (N.to_nat (l0 + 256 * l1)) out else fun _ => Bad))))).

Lemma stored_block_eq out s : stored_block out s = stored_body out s.
Proof.
  unfold stored_block, stored_body. unfold bind at 1.
  apply bind_eq; intros l0 s1. apply bind_eq; intros l1 s2.
  apply bind_eq; intros n0 s3. apply bind_eq; intros n1 s4. apply if_eq; reflexivity.
Qed.

Definition block_content (fuel : nat) (out : bytes) (hdr : N) : istate -> res bytes :=
  match N.div2 hdr with
  | 0%N => stored_block out
  | 1%N => codes fuel fixed_lit fixed_dist out
  | 2%N => bind dynamic_tables (fun ld => codes fuel (fst ld) (snd ld) out)
  | _ => fun _ => Bad
  end.

Definition blocks_body (fuel : nat) (k : bytes -> istate -> res bytes) (out : bytes)
  : istate -> res bytes :=
  bind (getbits 3) (fun hdr =>
    bind (block_content fuel out hdr) (fun out' s' =>
      if N.odd hdr then Ok out' (align s') else k out' s')).

Lemma blocks_S f out s : blocks (S f) out s = blocks_body (S f) (blocks f) out s.
Proof.
  unfold blocks_body, block_content, bind. cbn [blocks].
  destruct (getbits 3 s) as [hdr s1| |]; [|reflexivity|reflexivity].
  destruct (N.div2 hdr) as [|[p|p|]]; try reflexivity.
  destruct p; try reflexivity.
  destruct (dynamic_tables s1) as [[lit dist] s2| |]; reflexivity.
Qed.

Lemma blocks_aligned f : forall out s r cur rest, blocks f out s = Ok r (cur, rest) -> cur = [].
Proof.
  induction f as [|f IH]; intros out s r cur rest H; [discriminate|].
  rewrite blocks_S in H. unfold blocks_body, bind in H.
  destruct (getbits 3 s) as [hdr s1| |]; try discriminate.
  destruct (block_content (S f) out hdr s1) as [out' s'| |]; try discriminate.
  destruct (N.odd hdr).
  - unfold align in H. inversion H. reflexivity.
  - exact (IH _ _ _ _ _ H).
Qed.

Set Implicit Arguments.
(* R is binary because `refines` relates two runs of one decoder with different fuel; a property
   of a single decoder (local, wfp) ignores the second argument.  r_eof is one-sided: a fuelled
   decoder out of fuel answers Eof whatever the run with more fuel does.  r_getbyte: with bits of
   the current byte pending, getbyte is getbits 8. *)
Record closed (R : forall A, (istate -> res A) -> (istate -> res A) -> Prop) : Prop := {
  r_ext : forall A (p p' q q' : istate -> res A),
      (forall s, p s = p' s) -> (forall s, q s = q' s) -> R A p' q' -> R A p q;
  r_ret : forall A (a : A), R A (ret a) (ret a);
  r_bad : forall A, R A (fun _ => Bad) (fun _ => Bad);
  r_eof : forall A q, R A (fun _ => Eof) q;
  r_bind : forall A B p p' (f f' : A -> istate -> res B),
      R A p p' -> (forall a, R B (f a) (f' a)) -> R B (bind p f) (bind p' f');
  r_getbit : R bool getbit getbit;
  r_getbyte : R N (getbits 8) (getbits 8) -> R N getbyte getbyte;
  r_align : forall A (a : A), R A (fun s => Ok a (align s)) (fun s => Ok a (align s)) }.
Unset Implicit Arguments.

Section Related.
  Variable R : forall A, (istate -> res A) -> (istate -> res A) -> Prop.
  Hypothesis HR : closed R.

  Lemma rel_if A (b : bool) (p p' q q' : istate -> res A) :
    R _ p p' -> R _ q q' -> R _ (fun s => if b then p s else q s) (fun s => if b then p' s else q' s).
  Proof. destruct b; auto. Qed.

  Lemma rel_getbits n : R _ (getbits n) (getbits n).
  Proof.
    induction n as [|n IH].
    - exact (r_ret HR 0%N).
    - apply (r_ext HR _ _ _ _ (getbits_S n) (getbits_S n)). apply (r_bind HR); [exact (r_getbit HR)|].
      intros b. apply (r_bind HR); [exact IH|]. intros v. apply (r_ret HR).
  Qed.

  Lemma rel_getbyte : R _ getbyte getbyte.
  Proof. exact (r_getbyte HR (rel_getbits 8)). Qed.

  Lemma rel_take_bytes n : forall out, R _ (take_bytes n out) (take_bytes n out).
  Proof.
    induction n as [|n IH]; intros out.
    - exact (r_ret HR out).
    - apply (r_ext HR _ _ _ _ (take_bytes_S n out) (take_bytes_S n out)).
      apply (r_bind HR); [exact rel_getbyte|]. intros b. apply IH.
  Qed.

  Lemma rel_dec_sym_loop counts syms : forall code first index,
      R _ (dec_sym_loop counts syms code first index) (dec_sym_loop counts syms code first index).
  Proof.
    induction counts as [|c cs IH]; intros code first index.
    - exact (r_bad HR _).
    - apply (r_ext HR _ _ _ _ (dec_sym_loop_cons c cs syms code first index)
                          (dec_sym_loop_cons c cs syms code first index)).
      unfold dec_step. apply (r_bind HR); [exact (r_getbit HR)|]. intros b. cbv zeta.
      apply rel_if; [|apply IH].
      destruct (nth_error syms _); [apply (r_ret HR) | apply (r_bad HR)].
  Qed.

  Lemma rel_dec_sym t : R _ (dec_sym t) (dec_sym t).
  Proof. apply rel_dec_sym_loop. Qed.

  Lemma rel_codes_body k k' lit dist out :
    (forall o, R _ (k o) (k' o)) -> R _ (codes_body k lit dist out) (codes_body k' lit dist out).
  Proof.
    intros Hk. unfold codes_body. apply (r_bind HR); [apply rel_dec_sym|]. intros sym.
    apply rel_if; [apply Hk|]. apply rel_if; [apply (r_ret HR out)|]. apply rel_if; [apply (r_bad HR)|].
    apply (r_bind HR); [apply rel_getbits|]. intros e.
    apply (r_bind HR); [apply rel_dec_sym|]. intros dsym.
    apply rel_if; [apply (r_bad HR)|].
    apply (r_bind HR); [apply rel_getbits|]. intros e2. apply Hk.
  Qed.

  Lemma rel_codes lit dist : forall f f', f <= f' ->
      forall out, R _ (codes f lit dist out) (codes f' lit dist out).
  Proof.
    induction f as [|f IH]; intros f' Hf out; [apply (r_eof HR)|].
    destruct f' as [|f']; [lia|].
    apply (r_ext HR _ _ _ _ (codes_S f lit dist out) (codes_S f' lit dist out)).
    apply rel_codes_body. apply IH. lia.
  Qed.

  Lemma rel_read_hufflens : forall n order acc,
      R _ (read_hufflens order n acc) (read_hufflens order n acc).
  Proof.
    induction n as [|n IH]; intros order acc.
    - destruct order; exact (r_ret HR acc).
    - destruct order as [|o order]; [exact (r_bad HR _)|].
      apply (r_ext HR _ _ _ _ (read_hufflens_S o order n acc) (read_hufflens_S o order n acc)).
      apply (r_bind HR); [apply rel_getbits|]. intros v. apply IH.
  Qed.

  Lemma rel_read_lens f hl total : forall acc,
      R _ (read_lens f hl total acc) (read_lens f hl total acc).
  Proof.
    induction f as [|f IH]; intros acc; [apply (r_eof HR)|].
    apply (r_ext HR _ _ _ _ (read_lens_S f hl total acc) (read_lens_S f hl total acc)).
    unfold read_lens_body. destruct (Nat.ltb (length acc) total).
    - apply (r_bind HR); [apply rel_dec_sym|]. intros sym.
      destruct (Nat.ltb sym 16); [apply IH|].
      destruct (Nat.eqb sym 16).
      + destruct acc as [|prev acc']; [apply (r_bad HR)|].
        apply (r_bind HR); [apply rel_getbits|]. intros e. apply IH.
      + destruct (Nat.eqb sym 17); [apply (r_bind HR); [apply rel_getbits|]; intros e; apply IH|].
        destruct (Nat.eqb sym 18); [apply (r_bind HR); [apply rel_getbits|]; intros e; apply IH|].
        apply (r_bad HR).
    - destruct (Nat.eqb (length acc) total); [apply (r_ret HR) | apply (r_bad HR)].
  Qed.

  Lemma rel_dynamic_tables : R _ dynamic_tables dynamic_tables.
  Proof.
    apply (r_ext HR _ _ _ _ dynamic_tables_eq dynamic_tables_eq). unfold dyn_body.
    apply (r_bind HR); [apply rel_getbits|]. intros hlit.
    apply (r_bind HR); [apply rel_getbits|]. intros hdist.
    apply (r_bind HR); [apply rel_getbits|]. intros hclen.
    generalize (N.to_nat hlit + 257) (N.to_nat hdist + 1). intros nlit ndist. cbv zeta.
    destruct (_ || _)%bool; [apply (r_bad HR)|].
    apply (r_bind HR); [apply rel_read_hufflens|]. intros hlens.
    destruct (negb _); [apply (r_bad HR)|].
    apply (r_bind HR); [apply rel_read_lens|]. intros lens.
    destruct (negb _); [apply (r_bad HR)|].
    destruct (negb _); [apply (r_bad HR) | apply (r_ret HR)].
  Qed.

  Lemma rel_stored_block out : R _ (stored_block out) (stored_block out).
  Proof.
    apply (r_ext HR _ _ _ _ (stored_block_eq out) (stored_block_eq out)). unfold stored_body.
    apply (r_bind HR); [apply (r_align HR)|]. intros _.
    apply (r_bind HR); [apply rel_getbyte|]. intros l0.
    apply (r_bind HR); [apply rel_getbyte|]. intros l1.
    apply (r_bind HR); [apply rel_getbyte|]. intros n0.
    apply (r_bind HR); [apply rel_getbyte|]. intros n1.
    destruct (N.eqb _ 65535); [apply rel_take_bytes | apply (r_bad HR)].
  Qed.

  Lemma rel_block_content f f' out hdr :
    f <= f' -> R _ (block_content f out hdr) (block_content f' out hdr).
  Proof.
    intros Hf. unfold block_content. destruct (N.div2 hdr) as [|[p|p|]].
    - apply rel_stored_block.
    - apply (r_bad HR).
    - destruct p; try apply (r_bad HR).
      apply (r_bind HR); [apply rel_dynamic_tables|]. intros ld. apply rel_codes. exact Hf.
    - apply rel_codes. exact Hf.
  Qed.

  Lemma rel_blocks : forall f f', f <= f' -> forall out, R _ (blocks f out) (blocks f' out).
  Proof.
    induction f as [|f IH]; intros f' Hf out; [apply (r_eof HR)|].
    destruct f' as [|f']; [lia|].
    apply (r_ext HR _ _ _ _ (blocks_S f out) (blocks_S f' out)). unfold blocks_body.
    apply (r_bind HR); [apply rel_getbits|]. intros hdr.
    apply (r_bind HR); [apply rel_block_content; exact Hf|]. intros out'.
    apply rel_if; [apply (r_align HR) | apply IH; lia].
  Qed.
End Related.

Lemma local_closed : closed (fun A p _ => @local A p).
Proof.
  split.
  - intros A p p' q q' E _. exact (local_ext p p' E).
  - exact @local_ret.
  - exact @local_bad.
  - intros A q. exact local_eof.
  - intros A B p _ f _. exact (local_bind p f).
  - exact local_getbit.
  - intros H8 [|x cur] rest a cur' rest' H; [|exact (H8 _ _ _ _ _ H)].
    destruct rest as [|b rest1]; [discriminate|].
    apply fetched_at_most_one. right. exists b. inversion H. auto.
  - exact @local_finish.
Qed.

Lemma local_blocks f : forall out, local (blocks f out).
Proof. exact (rel_blocks _ local_closed f f (le_n f)). Qed.

Lemma refines_closed : closed (@refines).
Proof.
  split.
  - exact @refines_ext.
  - intros A a. apply refines_refl.
  - intros A. apply refines_refl.
  - intros A q s a s' H. discriminate.
  - exact @refines_bind.
  - apply refines_refl.
  - intros _. apply refines_refl.
  - intros A a. apply refines_refl.
Qed.

Lemma blocks_mono_le f f' out : f <= f' -> refines (blocks f out) (blocks f' out).
Proof. intros H. exact (rel_blocks _ refines_closed f f' H out). Qed.

