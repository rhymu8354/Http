(* HeadersResume.v -- the header-block parser is resumable (its answer on a buffer followed by
   more bytes is its answer when called again with the unconsumed rest followed by those bytes)
   and local (a Complete answer depends only on the bytes consumed): the fields and the remainder
   that an answer stands for (hdr_loop_inv) are still there when bytes are appended.  At the end,
   Complete and Incomplete answers against [block_complete] and [block_pending] of
   Spec/Rejections. *)
From Coq Require Import Lia.
From Http Require Import Model.Bytes Model.Headers Spec.HeaderGrammar Spec.Rejections
     Proofs.BytesLemmas Proofs.HeaderGrammarProofs.

Definition hshift (k : nat) (r : hres) : hres :=
  match r with
  | HComplete hs c => HComplete hs (k + c)
  | HIncomplete hs c => HIncomplete hs (k + c)
  | HError e => HError e
  end.

(* the only way more input can invalidate an answer about an unterminated line:
   the buffer ends with CR and the next byte is LF, under a line limit *)
Definition side (lim : option N) (s u : bytes) : Prop :=
  lim = None \/ (ends_cr s && starts_lf u)%bool = false.

Lemma over_limit_mono n m lim : n <= m -> over_limit n lim = true -> over_limit m lim = true.
Proof.
  unfold over_limit. destruct lim as [l|]; [|discriminate].
  intros H. rewrite !N.ltb_lt. lia.
Qed.

Lemma over_limit_none n : over_limit n None = false.
Proof. reflexivity. Qed.

Lemma unfold_ok_next f s v c v' c' :
  unfold_hdr f s v c = UOk v' c' -> exists lt', find_crlf (skipn (c' - c) s) = Some lt'.
Proof.
  intros H. destruct (unfold_inv f s v c) as [cs [r [_ [-> I]]]]. rewrite H in I.
  destruct I as [[lt [E _]] [_ ->]]. exists lt. rewrite (Nat.add_comm c), Nat.add_sub, skipn_app_exact.
  exact E.
Qed.

Lemma hdr_loop_off f lim : forall s acc off,
  hdr_loop f lim s acc off = hshift off (hdr_loop f lim s acc 0).
Proof.
  induction f as [|f IH]; intros s acc off; cbn [hdr_loop].
  - cbn. rewrite Nat.add_0_r. reflexivity.
  - destruct (hdr_step lim s) as [|e|c|h c]; cbn [hshift]; rewrite ?Nat.add_0_r; try reflexivity.
    cbn [Nat.add]. rewrite (IH _ _ (off + c)), (IH _ _ c).
    destruct (hdr_loop f lim _ _ 0); cbn [hshift]; rewrite ?Nat.add_assoc; reflexivity.
Qed.

Lemma hdr_parse_complete_app lim hs s u hs' c :
  hdr_parse lim hs s = HComplete hs' c ->
  c <= length s /\ hdr_parse lim hs (s ++ u) = HComplete hs' c.
Proof.
  intros H. destruct (hdr_parse_complete_inv _ _ _ _ _ H) as [fs [rest [Hok [-> [-> ->]]]]].
  split; [rewrite app_length; lia|]. rewrite <- app_assoc. apply hdr_parse_complete. exact Hok.
Qed.

Lemma hdr_parse_incomplete_app lim hs s u hs' c :
  hdr_parse lim hs s = HIncomplete hs' c ->
  c <= length s /\ hdr_parse lim hs (s ++ u) = hshift c (hdr_parse lim hs' (skipn c s ++ u)).
Proof.
  unfold hdr_parse. intros H.
  destruct (hdr_loop_inv (S (length s)) lim s hs 0) as [fs [r [Hok [-> [Hst I]]]]].
  rewrite H in I. destruct I as [-> ->]. cbn [Nat.add]. split; [rewrite app_length; lia|].
  assert (Hst' : fs = [] \/ starts_field (r ++ u)).
  { destruct Hst as [->|Hst]; [left; reflexivity|right; apply starts_field_app; exact Hst]. }
  rewrite skipn_app_exact, <- app_assoc.
  rewrite (hdr_loop_fields lim fs _ _ _ _ Hok Hst') by apply Nat.lt_succ_diag_r.
  rewrite hdr_loop_off. apply f_equal, hdr_loop_fuel; rewrite !app_length; lia.
Qed.

Lemma field_defect_app lim a r u e :
  side lim (a ++ r) u -> field_defect lim r e -> field_defect lim (r ++ u) e.
Proof.
  intros Hside Hd. destruct Hd as [l rest e Hl Hd|f l rest e Hf Hl Hd|r Hne E O].
  - rewrite <- !app_assoc. apply FD_line; assumption.
  - rewrite <- !app_assoc. apply FD_cont; assumption.
  - destruct Hside as [->|Hs]; [discriminate O|]. rewrite (ends_cr_app a r Hne) in Hs.
    destruct (find_crlf (r ++ u)) as [lt|] eqn:E2.
    + pose proof (find_crlf_app_none_strict r u lt E Hs E2) as Hle.
      pose proof (find_crlf_bound _ _ E2) as B.
      rewrite (line_split _ _ E2). apply FD_line; [apply is_line_firstn; exact E2|].
      apply LD_long. rewrite firstn_length, Nat.min_l by lia.
      apply (over_limit_mono (length r + 2)); [lia|exact O].
    + apply FD_unterminated; [destruct r; [contradiction|discriminate]|exact E2|].
      apply (over_limit_mono (length r + 2)); [rewrite app_length; lia|exact O].
Qed.

Lemma block_defect_app lim s u e :
  side lim s u -> block_defect lim s e -> block_defect lim (s ++ u) e.
Proof.
  intros Hside [fs [r [Hok [-> [Hd Hst]]]]]. exists fs, (r ++ u).
  split; [exact Hok|]. split; [symmetry; apply app_assoc|].
  split; [exact (field_defect_app lim _ r u e Hside Hd)|].
  destruct Hst as [->|Hst]; [left; reflexivity|right; apply starts_field_app; exact Hst].
Qed.

Lemma hdr_parse_error_app lim hs s u e :
  side lim s u -> hdr_parse lim hs s = HError e -> hdr_parse lim hs (s ++ u) = HError e.
Proof.
  intros Hside H. apply hdr_parse_reject_iff, block_defect_app; [exact Hside|].
  apply (hdr_parse_reject_iff lim hs). exact H.
Qed.

(* the three answers in one statement, in the shape [resumable] asks for (which does not compare
   the categories of rejections); used by the response and chunk parsers *)
Theorem hdr_parse_app lim hs s u :
  side lim s u ->
  match hdr_parse lim hs s with
  | HComplete hs' c =>
      c <= length s /\ hdr_parse lim hs (s ++ u) = HComplete hs' c
  | HIncomplete hs' c =>
      c <= length s /\
      hdr_parse lim hs (s ++ u) = hshift c (hdr_parse lim hs' (skipn c s ++ u))
  | HError e => exists e', hdr_parse lim hs (s ++ u) = HError e'
  end.
Proof.
  intros Hside. destruct (hdr_parse lim hs s) as [hs' c|hs' c|e] eqn:H.
  - apply hdr_parse_complete_app. exact H.
  - apply hdr_parse_incomplete_app. exact H.
  - exists e. apply hdr_parse_error_app; assumption.
Qed.

Theorem hdr_parse_complete_firstn lim hs s hs' c :
  hdr_parse lim hs s = HComplete hs' c -> hdr_parse lim hs (firstn c s) = HComplete hs' c.
Proof.
  intros H. destruct (hdr_parse_complete_inv _ _ _ _ _ H) as [fs [rest [Hok [-> [-> ->]]]]].
  rewrite firstn_app_exact. pose proof (hdr_parse_complete lim hs fs [] Hok) as C.
  rewrite app_nil_r in C. exact C.
Qed.

Lemma hdr_parse_complete_tail lim hs s hs' c :
  hdr_parse lim hs s = HComplete hs' c ->
  2 <= c /\ c <= length s /\ skipn (c - 2) (firstn c s) = [CR; LF].
Proof.
  intros H. destruct (hdr_parse_complete_inv _ _ _ _ _ H) as [fs [rest [_ [-> [_ ->]]]]].
  rewrite firstn_app_exact. unfold header_block. rewrite !app_length, Nat.add_sub, skipn_app_exact.
  repeat split; simpl; lia.
Qed.

Lemma complete_block_ends_lf lim hs0 block hs :
  hdr_parse lim hs0 block = HComplete hs (length block) -> exists p, block = p ++ [CR; LF].
Proof.
  intros H. pose proof (hdr_parse_complete_tail _ _ _ _ _ H) as [H2 [_ H3]].
  rewrite firstn_all in H3. exists (firstn (length block - 2) block).
  rewrite <- H3. symmetry. apply firstn_skipn.
Qed.

Lemma hdr_parse_bound lim hs s :
  match hdr_parse lim hs s with
  | HComplete _ c | HIncomplete _ c => c <= length s
  | HError _ => True
  end.
Proof.
  destruct (hdr_parse lim hs s) eqn:H; [..|exact I].
  - apply (hdr_parse_complete_app lim hs s [] _ _ H).
  - apply (hdr_parse_incomplete_app lim hs s [] _ _ H).
Qed.

Lemma block_complete_parse lim r fs :
  block_complete lim r fs ->
  hdr_parse lim [] r = HComplete (map field_header fs) (length (header_block fs)).
Proof. intros [Hok [rest ->]]. apply (hdr_parse_complete lim [] fs rest Hok). Qed.

Lemma hdr_incomplete_pending lim r hs k :
  hdr_parse lim [] r = HIncomplete hs k -> block_pending lim r /\ k <= length r.
Proof.
  intros H. split; [split|].
  - intros e Hd. apply (hdr_parse_reject_iff lim [] r e) in Hd. congruence.
  - intros fs BC. rewrite (block_complete_parse _ _ _ BC) in H. discriminate.
  - apply (hdr_parse_incomplete_app lim [] r [] _ _ H).
Qed.

Lemma pending_incomplete lim r :
  block_pending lim r -> exists hs k, hdr_parse lim [] r = HIncomplete hs k.
Proof.
  intros [Hnd Hnc]. destruct (hdr_parse lim [] r) as [hs c|hs k|e] eqn:H.
  - exfalso. destruct (hdr_parse_complete_inv _ _ _ _ _ H) as (fs & r' & Hok & -> & _).
    exact (Hnc fs (conj Hok (ex_intro _ r' eq_refl))).
  - eauto.
  - exfalso. apply hdr_parse_reject_iff in H. exact (Hnd e H).
Qed.
