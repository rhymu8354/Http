(* HuffmanCanon.v -- the canonical Huffman decoder of Model/Inflate.v (one bit at a time, count
   per length) inverts the canonical code of RFC 1951 3.2.2, for EVERY table of counts: the k-th
   code of length L is the L-bit number first(L)+k written most significant bit first, where
   first(1) = 0 and first(l+1) = 2*(first(l)+count(l)).  No completeness or prefix-freeness of the
   code is needed for this direction: codes of a longer length always lie above the range of every
   shorter length. *)
From Coq Require Import List NArith Arith Bool Lia.
From Http Require Import Model.Bytes Model.Inflate Proofs.InflateLocal.
Import ListNotations.

Definition bits_of (s : istate) : list bool := fst s ++ flat_map byte_bits (snd s).

Lemma getbit_view s b t : bits_of s = b :: t -> exists s', getbit s = Ok b s' /\ bits_of s' = t.
Proof.
  destruct s as [cur rest]. unfold bits_of. cbn [fst snd]. intros H.
  destruct cur as [|c cur'].
  - destruct rest as [|byte rest']; [discriminate|].
    cbn [app flat_map] in H. destruct (byte_bits_cons byte) as [x [l E]]. rewrite E in H.
    cbn [app] in H. inversion H; subst.
    exists (l, rest'). split; [cbn [getbit]; rewrite E; reflexivity|]. reflexivity.
  - cbn [app] in H. inversion H; subst. exists (cur', rest). split; reflexivity.
Qed.

Lemma bits_short_no_bytes s : length (bits_of s) < 8 -> snd s = [].
Proof.
  destruct s as [cur [|b r]]; [reflexivity|]. unfold bits_of. cbn [fst snd flat_map].
  rewrite !app_length. change (length (byte_bits b)) with 8. lia.
Qed.

(* n bits, most significant first *)
Fixpoint msb_bits (n : nat) (v : N) : list bool :=
  match n with
  | 0 => []
  | S n' => N.testbit v (N.of_nat n') :: msb_bits n' v
  end.

Lemma msb_bits_S n v : msb_bits (S n) v = N.testbit v (N.of_nat n) :: msb_bits n v.
Proof. reflexivity. Qed.

Lemma msb_bits_length n v : length (msb_bits n v) = n.
Proof. induction n; cbn [msb_bits length]; auto. Qed.

(* with `code` the bits of v above position m+1, reading the bit at position m gives those above m *)
Lemma shiftr_next v m : (2 * N.shiftr v (N.succ m) + bit_val (N.testbit v m) = N.shiftr v m)%N.
Proof. rewrite N.shiftr_succ_r, N.testbit_odd. symmetry. apply N.div2_odd. Qed.

(* first code at position n (1-based) of a table, from a given starting value *)
Fixpoint first_at (n : nat) (counts : list N) (first : N) : N :=
  match n, counts with
  | S (S _ as n'), c :: cs => first_at n' cs (2 * (first + c))%N
  | _, _ => first
  end.

Lemma first_at_1 counts first : first_at 1 counts first = first.
Proof. destruct counts; reflexivity. Qed.

Lemma first_at_SS m c cs first :
  first_at (S (S m)) (c :: cs) first = first_at (S m) cs (2 * (first + c))%N.
Proof. reflexivity. Qed.

Lemma first_at_ge m : forall counts first,
    m <= length counts -> (first * 2 ^ N.of_nat m <= first_at (S m) counts first)%N.
Proof.
  induction m as [|m IH]; intros counts first Hl.
  - rewrite first_at_1. change (2 ^ N.of_nat 0)%N with 1%N. rewrite N.mul_1_r. apply N.le_refl.
  - destruct counts as [|c cs]; [inversion Hl|].
    rewrite first_at_SS, Nat2N.inj_succ, N.pow_succ_r'.
    pose proof (IH cs (2 * (first + c))%N (le_S_n _ _ Hl)) as H. lia.
Qed.

Lemma first_at_lower n : forall counts first,
    n <= length counts -> 1 <= n -> (first * 2 ^ N.of_nat (n - 1) <= first_at n counts first)%N.
Proof.
  destruct n as [|m]; intros counts first Hl Hn; [inversion Hn|].
  rewrite Nat.sub_succ, Nat.sub_0_r. apply first_at_ge, Nat.lt_le_incl, Hl.
Qed.

Lemma syms_with_length l lens : forall i, N.of_nat (length (syms_with l i lens)) = count_len l lens.
Proof.
  induction lens as [|x t IH]; intros i; [reflexivity|].
  cbn [syms_with count_len]. destruct (N.eqb x l).
  - cbn [length]. rewrite Nat2N.inj_succ, IH. lia.
  - rewrite IH. lia.
Qed.

Lemma rank_lt_count l : forall lens sym,
    nth_error lens sym = Some l -> (count_len l (firstn sym lens) < count_len l lens)%N.
Proof.
  induction lens as [|x t IH]; intros [|sym] Hs; try discriminate; cbn [firstn count_len].
  - injection Hs as ->. rewrite N.eqb_refl. lia.
  - specialize (IH _ Hs). lia.
Qed.

Lemma syms_with_nth l lens : forall i j,
    nth_error lens j = Some l ->
    nth_error (syms_with l i lens) (N.to_nat (count_len l (firstn j lens))) = Some (i + j).
Proof.
  induction lens as [|x t IH]; intros i [|j] H; try discriminate; cbn [firstn count_len syms_with].
  - injection H as ->. rewrite N.eqb_refl, Nat.add_0_r. reflexivity.
  - rewrite <- Nat.add_succ_comm, <- (IH (S i) j H). destruct (N.eqb x l).
    + rewrite N.add_1_l, N2Nat.inj_succ. reflexivity.
    + reflexivity.
Qed.

Lemma syms_with_rank l lens sym pre post :
  nth_error lens sym = Some l ->
  nth_error (pre ++ syms_with l 0 lens ++ post) (length pre + N.to_nat (count_len l (firstn sym lens)))
  = Some sym.
Proof.
  intros H. rewrite nth_error_app2, Nat.add_comm, Nat.add_sub by apply Nat.le_add_r.
  rewrite nth_error_app1; [exact (syms_with_nth l lens 0 sym H)|].
  pose proof (syms_with_length l lens 0). pose proof (rank_lt_count l lens sym H). lia.
Qed.

(* counts and symbols of a table whose lengths are listed for an arbitrary list of candidate lengths *)
Definition counts_for (ls : list N) (lens : list N) : list N := map (fun l => count_len l lens) ls.
Definition syms_for (ls : list N) (lens : list N) : list nat := flat_map (fun l => syms_with l 0 lens) ls.

(* the canonical code of a symbol: its length and the bits, most significant first *)
Definition code_value (lens : list N) (sym : nat) (L : nat) : N :=
  (first_at L (counts_for LENGTHS lens) 0 + count_len (N.of_nat L) (firstn sym lens))%N.
Definition code_bits (lens : list N) (sym : nat) (L : nat) : list bool := msb_bits L (code_value lens sym L).

(* The decoding loop on the code v of a symbol of length l, the (m+1)-th of the lengths `ls` still to
   try: `code` is what has been read of v, `skipped` the symbols of the lengths already tried.  Codes of
   a longer length lie above the range of every shorter one (first_at_ge), so the loop passes the first
   m lengths and hits at l, at the symbol's rank among those of its length. *)
Lemma dec_loop_canonical lens sym l v :
  nth_error lens sym = Some l ->
  forall m ls skipped code first s t,
    nth_error ls m = Some l ->
    code = N.shiftr v (N.of_nat (S m)) ->
    v = (first_at (S m) (counts_for ls lens) first + count_len l (firstn sym lens))%N ->
    bits_of s = msb_bits (S m) v ++ t ->
    exists s', dec_sym_loop (counts_for ls lens) (skipped ++ syms_for ls lens) code first
                            (N.of_nat (length skipped)) s = Ok sym s' /\ bits_of s' = t.
Proof.
  intros Hs. unfold counts_for, syms_for.
  (* one round of the loop: the next bit of v is read into code *)
  induction m as [|m IH]; intros [|l0 ls] skipped code first s t Hl Hc Hv Hb; try discriminate;
    rewrite msb_bits_S in Hb; destruct (getbit_view _ _ _ Hb) as [s1 [G B1]];
    cbn [nth_error map flat_map] in *; rewrite dec_sym_loop_cons; unfold dec_step, bind;
    rewrite G, Hc, Nat2N.inj_succ, shiftr_next.
  - (* the last bit: the code is v, and v lies among the codes of this length *)
    injection Hl as ->. exists s1. split; [|exact B1].
    rewrite N.shiftr_0_r. rewrite first_at_1 in Hv. pose proof (rank_lt_count l lens sym Hs) as Hk.
    rewrite (proj2 (N.leb_le first v)), (proj2 (N.ltb_lt v _)) by lia. cbn [andb].
    replace (N.to_nat (N.of_nat (length skipped) + (v - first)))
      with (length skipped + N.to_nat (count_len l (firstn sym lens))) by lia.
    rewrite syms_with_rank by exact Hs. reflexivity.
  - (* a shorter prefix of v lies above every code of its length (Habove): the loop goes on *)
    rewrite first_at_SS in Hv.
    assert (Hm : m <= length (map (fun l1 => count_len l1 lens) ls)).
    { rewrite map_length. apply Nat.lt_le_incl, nth_error_Some. rewrite Hl. discriminate. }
    assert (Habove : (first + count_len l0 lens <= N.shiftr v (N.of_nat (S m)))%N).
    { rewrite N.shiftr_div_pow2. apply N.div_le_lower_bound; [apply N.pow_nonzero; discriminate|].
      pose proof (first_at_ge m _ (2 * (first + count_len l0 lens))%N Hm) as H.
      rewrite Nat2N.inj_succ, N.pow_succ_r'. lia. }
    rewrite (proj2 (N.ltb_ge _ _) Habove), andb_false_r, app_assoc.
    replace (N.of_nat (length skipped) + count_len l0 lens)%N
      with (N.of_nat (length (skipped ++ syms_with l0 0 lens)))
      by (rewrite app_length, Nat2N.inj_add, syms_with_length; reflexivity).
    apply IH; [exact Hl | reflexivity | exact Hv | exact B1].
Qed.

Lemma LENGTHS_nth m : m < 15 -> nth_error LENGTHS m = Some (N.of_nat (S m)).
Proof. intros H. do 15 (destruct m as [|m]; [reflexivity|]). lia. Qed.

(* THE decoding theorem: whatever the code lengths are, a symbol's canonical code decodes to it
   (given only that the code fits its length, which "not over-subscribed" guarantees) *)
Theorem dec_sym_canonical lens sym L s t :
  1 <= L -> L <= 15 ->
  nth_error lens sym = Some (N.of_nat L) ->
  (code_value lens sym L < 2 ^ N.of_nat L)%N ->
  bits_of s = code_bits lens sym L ++ t ->
  exists s', dec_sym (mk_table lens) s = Ok sym s' /\ bits_of s' = t.
Proof.
  intros H1 H2 Hs Hfit Hb. destruct L as [|m]; [inversion H1|].
  refine (dec_loop_canonical lens sym _ (code_value lens sym (S m)) Hs m LENGTHS [] 0%N 0%N s t
                             (LENGTHS_nth m H2) _ eq_refl Hb).
  rewrite N.shiftr_div_pow2. symmetry. apply N.div_small, Hfit.
Qed.
