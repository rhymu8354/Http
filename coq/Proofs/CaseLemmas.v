(* CaseLemmas.v -- ASCII letter case never matters to the header lookups (C18).
   [lower] is [map to_lower], and [to_lower] moves A-Z onto a-z and nothing else: a test that
   cannot tell c from c + 32 for an upper-case c cannot see [lower] at all.  The charset label is
   normalised before it is looked up, so that its case does not matter is a theorem as well. *)
From Coq Require Import Lia.
From Http Require Import Model.Bytes Model.Utf8 Model.Num Model.Headers Model.Request Model.Coding
     Proofs.BytesLemmas.

Definition ci_eq (a b : bytes) : Prop := lower a = lower b.

Lemma to_lower_spec c :
  ((65 <= c <= 90)%N /\ to_lower c = (c + 32)%N) \/ ((c < 65 \/ 90 < c)%N /\ to_lower c = c).
Proof.
  unfold to_lower. destruct (between 65 90 c) eqn:E.
  - left. apply between_spec in E. split; [exact E|reflexivity].
  - right. apply between_false in E. split; [exact E|reflexivity].
Qed.

Lemma to_lower_idem c : to_lower (to_lower c) = to_lower c.
Proof.
  destruct (to_lower_spec c) as [[H ->]|[_ E]]; [|rewrite !E; reflexivity].
  destruct (to_lower_spec (c + 32)) as [[H' _]|[_ E]]; [lia|exact E].
Qed.

Lemma to_lower_big c : (128 <= c)%N -> to_lower c = c.
Proof. intros H. destruct (to_lower_spec c) as [[H' _]|[_ E]]; [lia|exact E]. Qed.

Lemma ltb128_lower c : N.ltb (to_lower c) 128 = N.ltb c 128.
Proof.
  destruct (to_lower_spec c) as [[H ->]|[_ ->]]; [|reflexivity].
  apply eq_iff_eq_true. rewrite !N.ltb_lt. lia.
Qed.

(* a range test that holds of all letters, or of none *)
Lemma between_to_lower lo hi c :
  (hi < 65 \/ 122 < lo \/ lo <= 65 /\ 122 <= hi)%N -> between lo hi (to_lower c) = between lo hi c.
Proof.
  intros R. destruct (to_lower_spec c) as [[H ->]|[_ ->]]; [|reflexivity].
  apply eq_iff_eq_true. rewrite !between_spec. lia.
Qed.

Lemma eqb_to_lower c d :
  between 65 90 d = false -> between 97 122 d = false -> N.eqb (to_lower c) d = N.eqb c d.
Proof.
  intros H1 H2. destruct (to_lower_spec c) as [[H ->]|[_ ->]]; [|reflexivity].
  apply between_false in H1, H2. apply eq_iff_eq_true. rewrite !N.eqb_eq. lia.
Qed.

Lemma is_ws_false_graphic c : (33 <= c <= 126)%N -> is_ws c = false.
Proof.
  intros H. unfold is_ws.
  repeat apply orb_false_intro; first [apply between_false; lia | apply N.eqb_neq; lia].
Qed.

Lemma is_ws_lower c : is_ws (to_lower c) = is_ws c.
Proof.
  destruct (to_lower_spec c) as [[H ->]|[_ ->]]; [|reflexivity].
  rewrite !is_ws_false_graphic by lia. reflexivity.
Qed.

Lemma is_digit_lower c : is_digit (to_lower c) = is_digit c.
Proof. apply between_to_lower. lia. Qed.

Lemma is_graphic_lower c : is_graphic (to_lower c) = is_graphic c.
Proof. apply between_to_lower. lia. Qed.

Lemma is_wsp_lower c : is_wsp (to_lower c) = is_wsp c.
Proof. unfold is_wsp. rewrite !eqb_to_lower by reflexivity. reflexivity. Qed.

Lemma is_vchar_lower c : is_vchar (to_lower c) = is_vchar c.
Proof. unfold is_vchar. rewrite is_graphic_lower, !eqb_to_lower by reflexivity. reflexivity. Qed.

Lemma lower_idem s : lower (lower s) = lower s.
Proof. unfold lower. rewrite map_map. apply map_ext. apply to_lower_idem. Qed.

Lemma ci_eq_lower s : ci_eq (lower s) s.
Proof. apply lower_idem. Qed.

Lemma ci_lift {A} (f : bytes -> A) :
  (forall s, f (lower s) = f s) -> forall s s', ci_eq s s' -> f s = f s'.
Proof. intros Hf s s' H. rewrite <- (Hf s), <- (Hf s'). exact (f_equal f H). Qed.

Lemma firstn_lower n s : firstn n (lower s) = lower (firstn n s).
Proof. apply firstn_map. Qed.

Lemma skipn_lower n s : skipn n (lower s) = lower (skipn n s).
Proof. apply skipn_map. Qed.

Lemma lower_app a b : lower (a ++ b) = lower a ++ lower b.
Proof. apply map_app. Qed.

Lemma length_lower s : length (lower s) = length s.
Proof. apply map_length. Qed.

Lemma ci_eq_length s s' : ci_eq s s' -> length s = length s'.
Proof. intros H. apply (f_equal (@length N)) in H. rewrite !length_lower in H. exact H. Qed.

Lemma forallb_lower (p : N -> bool) s :
  (forall c, p (to_lower c) = p c) -> forallb p (lower s) = forallb p s.
Proof.
  intros Hp. induction s as [|a s IH]; [reflexivity|].
  cbn [lower map forallb]. fold (lower s). rewrite Hp, IH. reflexivity.
Qed.

Lemma drop_while_map (p : N -> bool) (f : N -> N) s :
  (forall b, p (f b) = p b) -> drop_while p (map f s) = map f (drop_while p s).
Proof.
  intros H. induction s as [|a t IH]; [reflexivity|].
  cbn [map drop_while]. rewrite H. destruct (p a); [exact IH|reflexivity].
Qed.

Lemma trim_by_map (p : N -> bool) (f : N -> N) s :
  (forall b, p (f b) = p b) -> trim_by p (map f s) = map f (trim_by p s).
Proof.
  intros H. unfold trim_by.
  rewrite (drop_while_map p f s H), <- map_rev, (drop_while_map p f _ H), map_rev. reflexivity.
Qed.

Lemma trim_lower s : trim (lower s) = lower (trim s).
Proof. apply (trim_by_map is_ws to_lower s is_ws_lower). Qed.

Lemma find_byte_lower d s :
  between 65 90 d = false -> between 97 122 d = false -> find_byte d (lower s) = find_byte d s.
Proof.
  intros H1 H2. induction s as [|a s IH]; [reflexivity|].
  cbn [lower map find_byte]. fold (lower s). rewrite eqb_to_lower, IH by assumption. reflexivity.
Qed.

Lemma split_on_lower d s :
  between 65 90 d = false -> between 97 122 d = false ->
  split_on d (lower s) = map lower (split_on d s).
Proof.
  intros H1 H2. induction s as [|a s IH]; [reflexivity|].
  cbn [lower map split_on]. fold (lower s). rewrite eqb_to_lower, IH by assumption.
  destruct (N.eqb a d); [reflexivity|]. destruct (split_on d s); reflexivity.
Qed.

Lemma split_at_lower d x :
  between 65 90 d = false -> between 97 122 d = false ->
  split_at d (lower x) = option_map (fun p => (lower (fst p), lower (snd p))) (split_at d x).
Proof.
  intros H1 H2. unfold split_at. rewrite find_byte_lower by assumption.
  destruct (find_byte d x) as [k|]; [|reflexivity].
  rewrite firstn_lower, skipn_lower. reflexivity.
Qed.

(* only an empty piece is dropped, and lower keeps a piece empty or non-empty *)
Lemma drop_last_empty_lower l : drop_last_empty (map lower l) = map lower (drop_last_empty l).
Proof.
  induction l as [|p l IH]; [reflexivity|].
  destruct p, l; try reflexivity; cbn [map drop_last_empty lower] in *; rewrite IH; reflexivity.
Qed.

Lemma value_tokens_lower v : value_tokens (lower v) = value_tokens v.
Proof.
  unfold value_tokens, split_terminator.
  rewrite split_on_lower by reflexivity. rewrite drop_last_empty_lower, map_map.
  apply map_ext. intros p. rewrite trim_lower, lower_idem. reflexivity.
Qed.

(* digits are not letters: the numeric parser cannot see letter case *)
Lemma lower_digits s : forallb is_digit s = true -> lower s = s.
Proof.
  induction s as [|c s IH]; [reflexivity|]. cbn [forallb lower map]. intros H.
  apply andb_prop in H as [H1 H2]. apply between_spec in H1. fold (lower s). rewrite (IH H2).
  destruct (to_lower_spec c) as [[U _]|[_ ->]]; [lia|reflexivity].
Qed.

Lemma parse_dec_nondigit s : forallb is_digit s = false -> parse_dec s = None.
Proof. intros H. destruct s; [reflexivity|]. unfold parse_dec. rewrite H. reflexivity. Qed.

Lemma parse_dec_lower s : parse_dec (lower s) = parse_dec s.
Proof.
  destruct (forallb is_digit s) eqn:F; [rewrite (lower_digits s F); reflexivity|].
  rewrite !parse_dec_nondigit; [reflexivity|exact F|].
  rewrite (forallb_lower _ _ is_digit_lower). exact F.
Qed.

Definition hdr_ci (h h' : header) : Prop := ci_eq (fst h) (fst h') /\ ci_eq (snd h) (snd h').
Definition hdrs_ci (hs hs' : list header) : Prop := Forall2 hdr_ci hs hs'.

Lemma hdrs_ci_refl hs : hdrs_ci hs hs.
Proof. induction hs; constructor; [split; reflexivity|assumption]. Qed.

Lemma name_eq_ci a a' n n' : ci_eq a a' -> ci_eq n n' -> name_eq a n = name_eq a' n'.
Proof. intros H1 H2. exact (f_equal2 bytes_eqb H1 H2). Qed.

Lemma filter_ci (p p' : bytes -> bool) hs hs' :
  (forall a a', ci_eq a a' -> p a = p' a') -> hdrs_ci hs hs' ->
  hdrs_ci (filter (fun h => p (fst h)) hs) (filter (fun h => p' (fst h)) hs').
Proof.
  intros Hp. induction 1 as [|h h' hs hs' Hh _ IH]; [constructor|].
  cbn [filter]. rewrite (Hp _ _ (proj1 Hh)). destruct (p' (fst h')); [constructor; assumption|exact IH].
Qed.

Lemma hmv_ci hs hs' n n' :
  hdrs_ci hs hs' -> ci_eq n n' ->
  Forall2 ci_eq (header_multi_value hs n) (header_multi_value hs' n').
Proof.
  intros H Hn. unfold header_multi_value.
  induction (filter_ci (fun a => name_eq a n) (fun a => name_eq a n') hs hs'
               (fun a a' Ha => name_eq_ci a a' n n' Ha Hn) H) as [|h h' l l' Hh _ IH];
    constructor; [exact (proj2 Hh)|exact IH].
Qed.

Lemma header_tokens_ci hs hs' n n' :
  hdrs_ci hs hs' -> ci_eq n n' -> header_tokens hs n = header_tokens hs' n'.
Proof.
  intros H Hn. unfold header_tokens.
  induction (hmv_ci hs hs' n n' H Hn) as [|v v' vs vs' Hv _ IH]; [reflexivity|].
  cbn [flat_map]. rewrite (ci_lift _ value_tokens_lower v v' Hv), IH. reflexivity.
Qed.

Lemma has_header_token_ci hs hs' n n' tok tok' :
  hdrs_ci hs hs' -> ci_eq n n' -> ci_eq tok tok' ->
  has_header_token hs n tok = has_header_token hs' n' tok'.
Proof.
  intros H Hn Ht. unfold has_header_token, ci_eq in *. rewrite (header_tokens_ci _ _ _ _ H Hn), Ht. reflexivity.
Qed.

Lemma has_header_ci hs hs' n n' : hdrs_ci hs hs' -> ci_eq n n' -> has_header hs n = has_header hs' n'.
Proof.
  intros H Hn. unfold has_header. induction H as [|h h' hs hs' Hh _ IH]; [reflexivity|].
  cbn [existsb]. rewrite (name_eq_ci _ _ _ _ (proj1 Hh) Hn), IH. reflexivity.
Qed.

Lemma join_ci sep vs vs' : Forall2 ci_eq vs vs' -> ci_eq (join sep vs) (join sep vs').
Proof.
  unfold ci_eq. induction 1 as [|v v' vs vs' Hv Hvs IH]; [reflexivity|].
  destruct Hvs; [exact Hv|]. cbn [join] in *. rewrite !lower_app, Hv, IH. reflexivity.
Qed.

Inductive opt_ci : option bytes -> option bytes -> Prop :=
| opt_ci_none : opt_ci None None
| opt_ci_some v v' : ci_eq v v' -> opt_ci (Some v) (Some v').

Lemma header_value_ci hs hs' n n' :
  hdrs_ci hs hs' -> ci_eq n n' -> opt_ci (header_value hs n) (header_value hs' n').
Proof.
  intros H Hn. unfold header_value.
  destruct (hmv_ci hs hs' n n' H Hn) as [|v v' vs vs' Hv Hvs]; constructor.
  apply (join_ci [COMMA] (v :: vs) (v' :: vs')). constructor; assumption.
Qed.

(* the framing decision of a response, once its header block is complete *)
Inductive framing := FFixed (n : N) | FBadLength | FChunked | FNone.

Definition resp_framing (hs : list header) : framing :=
  match header_value hs CONTENT_LENGTH with
  | Some v => match parse_dec v with Some n => FFixed n | None => FBadLength end
  | None => if has_header_token hs TRANSFER_ENCODING CHUNKED then FChunked else FNone
  end.

Theorem resp_framing_ci hs hs' : hdrs_ci hs hs' -> resp_framing hs = resp_framing hs'.
Proof.
  intros H. unfold resp_framing.
  destruct (header_value_ci hs hs' CONTENT_LENGTH CONTENT_LENGTH H eq_refl) as [|v v' HV].
  - rewrite (has_header_token_ci hs hs' _ _ _ _ H eq_refl eq_refl). reflexivity.
  - rewrite (ci_lift _ parse_dec_lower v v' HV). reflexivity.
Qed.

(* requests: the only framing input is Content-Length *)
Definition req_framing (hs : list header) : option (option N) :=
  match header_value hs CONTENT_LENGTH with
  | Some v => Some (parse_dec v)
  | None => None
  end.

Theorem req_framing_ci hs hs' : hdrs_ci hs hs' -> req_framing hs = req_framing hs'.
Proof.
  intros H. unfold req_framing.
  destruct (header_value_ci hs hs' CONTENT_LENGTH CONTENT_LENGTH H eq_refl) as [|v v' HV];
    [reflexivity|].
  rewrite (ci_lift _ parse_dec_lower v v' HV). reflexivity.
Qed.

(* decode_body: the returned body does not depend on letter case *)
Theorem decode_body_ci gunzip inflate_raw inflate_zlib hs hs' body :
  hdrs_ci hs hs' ->
  option_map snd (decode_body gunzip inflate_raw inflate_zlib hs body) =
  option_map snd (decode_body gunzip inflate_raw inflate_zlib hs' body).
Proof.
  intros H. unfold decode_body.
  rewrite (header_tokens_ci hs hs' CONTENT_ENCODING CONTENT_ENCODING H eq_refl).
  destruct (decode_loop _ _ _ _ body) as [[r b]|]; reflexivity.
Qed.

Lemma eq_ignore_case_lower a b : eq_ignore_case (lower a) b = eq_ignore_case a b.
Proof. unfold eq_ignore_case. rewrite lower_idem. reflexivity. Qed.

Lemma find_charset_lower l : find_charset (map lower l) = option_map lower (find_charset l).
Proof.
  induction l as [|p l IH]; [reflexivity|].
  cbn [map find_charset]. rewrite trim_lower. rewrite split_at_lower by reflexivity.
  destruct (split_at EQUALS (trim p)) as [[name value]|]; cbn [option_map fst snd]; [|exact IH].
  rewrite eq_ignore_case_lower. destruct (eq_ignore_case name CHARSET); [reflexivity|exact IH].
Qed.

Lemma content_type_charset_lower ct :
  option_map lower (content_type_charset (lower ct)) = option_map lower (content_type_charset ct).
Proof.
  unfold content_type_charset. rewrite find_byte_lower by reflexivity.
  destruct (find_byte SEMI ct) as [d|].
  - rewrite firstn_lower, skipn_lower. rewrite split_at_lower by reflexivity.
    destruct (split_at SLASH (firstn d ct)) as [[ty sub]|]; cbn [option_map fst snd]; [|reflexivity].
    rewrite eq_ignore_case_lower. destruct (eq_ignore_case ty TEXT); [|reflexivity].
    rewrite split_on_lower by reflexivity. rewrite find_charset_lower.
    destruct (find_charset (split_on SEMI (skipn (S d) ct))) as [cs|]; cbn [option_map];
      [rewrite lower_idem|]; reflexivity.
  - rewrite split_at_lower by reflexivity.
    destruct (split_at SLASH ct) as [[ty sub]|]; cbn [option_map fst snd]; [|reflexivity].
    rewrite eq_ignore_case_lower. destruct (eq_ignore_case ty TEXT); reflexivity.
Qed.

(* a code point below 128 is its own encoding; every byte of a longer encoding is >= 128 *)
Lemma utf8_encode_char_lower c : utf8_encode_char (to_lower c) = lower (utf8_encode_char c).
Proof.
  unfold utf8_encode_char. rewrite ltb128_lower.
  destruct (N.ltb c 128) eqn:A; [reflexivity|].
  apply N.ltb_ge in A. rewrite (to_lower_big c A).
  assert (Hb : forall k x, (128 <= k)%N -> to_lower (k + x) = (k + x)%N)
    by (intros k x Hk; apply to_lower_big; lia).
  destruct (N.ltb c 2048); [|destruct (N.ltb c 65536)];
    cbn [lower map]; rewrite !Hb by discriminate; reflexivity.
Qed.

Lemma utf8_encode_lower cs : utf8_encode (lower cs) = lower (utf8_encode cs).
Proof.
  unfold utf8_encode. induction cs as [|c cs IH]; [reflexivity|].
  cbn [lower map flat_map]. fold (lower cs). rewrite utf8_encode_char_lower, IH, lower_app. reflexivity.
Qed.

Section Text.
  Variable enc : Type.
  Variable for_label : bytes -> option enc.
  Variable enc_decode : enc -> bytes -> option (list N).
  (* encoding_rs looks labels up ASCII-case-insensitively (sampled, not proved) *)
  Hypothesis for_label_ci : forall l l', ci_eq l l' -> for_label l = for_label l'.

  Theorem decode_text_ci hs hs' body :
    hdrs_ci hs hs' ->
    decode_text enc for_label enc_decode hs body = decode_text enc for_label enc_decode hs' body.
  Proof.
    intros H. unfold decode_text.
    destruct (header_value_ci hs hs' CONTENT_TYPE CONTENT_TYPE H eq_refl) as [|ct ct' HV];
      [reflexivity|].
    pose proof (ci_lift _ content_type_charset_lower ct ct' HV) as HC. cbv beta in HC.
    destruct (content_type_charset ct) as [cs|], (content_type_charset ct') as [cs'|];
      try discriminate HC; [|reflexivity].
    injection HC as Hcs.
    rewrite (for_label_ci (utf8_encode cs) (utf8_encode cs')); [reflexivity|].
    unfold ci_eq. rewrite <- !utf8_encode_lower, Hcs. reflexivity.
  Qed.
End Text.

(* encoding_rs::Encoding::for_label as "normalise, then look up": leading and trailing ASCII
   whitespace (09 0A 0C 0D 20) removed, ASCII letters lower-cased, the result looked up in the label
   table (any function on normalised labels).  Case-insensitivity of the charset label is then a
   theorem instead of a hypothesis about the oracle. *)
Lemma label_ws_lower b : is_label_ws (to_lower b) = is_label_ws b.
Proof. unfold is_label_ws. rewrite !eqb_to_lower by reflexivity. reflexivity. Qed.

Lemma label_trim_lower l : label_trim (lower l) = lower (label_trim l).
Proof. apply (trim_by_map is_label_ws to_lower l label_ws_lower). Qed.

Theorem label_norm_ci l l' : ci_eq l l' -> label_norm l = label_norm l'.
Proof.
  unfold ci_eq, label_norm. intros H. rewrite <- !label_trim_lower. exact (f_equal label_trim H).
Qed.

Lemma label_trim_idem s : label_trim (label_trim s) = label_trim s.
Proof. apply (trim_by_idem is_label_ws). Qed.

Theorem label_norm_idem l : label_norm (label_norm l) = label_norm l.
Proof. unfold label_norm. rewrite label_trim_lower, lower_idem, label_trim_idem. reflexivity. Qed.

Section TextNorm.
  Variable enc : Type.
  Variable lookup : bytes -> option enc.          (* the label table, on normalised labels *)
  Variable enc_decode : enc -> bytes -> option (list N).

  Theorem decode_text_ci_unconditional hs hs' body :
    hdrs_ci hs hs' ->
    decode_text enc (for_label_of lookup) enc_decode hs body
    = decode_text enc (for_label_of lookup) enc_decode hs' body.
  Proof.
    apply decode_text_ci. intros l l' H. unfold for_label_of. rewrite (label_norm_ci _ _ H). reflexivity.
  Qed.
End TextNorm.
