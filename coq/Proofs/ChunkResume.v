(* ChunkResume.v -- ChunkedBody::decode is resumable at every byte.
   One lemma (chunk_step_app) says what a single step answers on a ++ b given its answer on a;
   chunk_decode is unfolded one step at a time without fuel or offset (chunk_decode_step); the
   theorem follows by induction on the length of a. *)
From Coq Require Import Lia.
From Http Require Import Model.Bytes Model.Utf8 Model.Headers Model.Request
     Model.Chunked Proofs.BytesLemmas Proofs.FeedGeneric Proofs.HeadersResume.

(* well-formed decoder states: a data phase always still needs at least one byte *)
Definition cwf (st : chunk_state) : Prop :=
  match c_phase st with CData n => n <> 0%N | _ => True end.

Lemma cwf_init : cwf chunk_init.
Proof. exact I. Qed.

Definition coeq (r1 r2 : chunk_state * outcome) : Prop :=
  match r1, r2 with
  | (_, Reject e1), (_, Reject e2) => e1 = e2
  | _, _ => r1 = r2
  end.

Lemma coeq_refl r : coeq r r.
Proof. exact (goeq_refl chunk_state r). Qed.

Definition cshift (k : nat) (r : chunk_state * outcome) : chunk_state * outcome :=
  match r with
  | (s, Complete c) => (s, Complete (k + c))
  | (s, Incomplete c) => (s, Incomplete (k + c))
  | (s, Reject e) => (s, Reject e)
  end.

Lemma cshift_cshift k1 k2 r : cshift k1 (cshift k2 r) = cshift (k1 + k2) r.
Proof. exact (gshift_gshift chunk_state k1 k2 r). Qed.

Lemma coeq_cshift k r1 r2 : coeq r1 r2 -> coeq (cshift k r1) (cshift k r2).
Proof. exact (goeq_gshift chunk_state k r1 r2). Qed.

Lemma decode_data_whole st n data rest :
  length data = N.to_nat n ->
  decode_data st n (data ++ rest) =
  CPart {| c_phase := CTerminator; c_buffer := c_buffer st ++ data; c_trailer := c_trailer st |}
        (length data).
Proof.
  intros Hd. unfold decode_data. cbv zeta.
  destruct (N.leb_spec n (N.of_nat (length (data ++ rest)))) as [_|L]; [|rewrite app_length in L; lia].
  rewrite <- Hd. replace (n - N.of_nat (length data))%N with 0%N by lia.
  cbn [N.eqb]. rewrite firstn_app_exact. reflexivity.
Qed.

Lemma decode_data_short st n buf :
  (N.of_nat (length buf) < n)%N ->
  decode_data st n buf =
  CInc {| c_phase := CData (n - N.of_nat (length buf)); c_buffer := c_buffer st ++ buf;
          c_trailer := c_trailer st |} (length buf).
Proof.
  intros Hlt. unfold decode_data. cbv zeta.
  destruct (N.leb_spec n (N.of_nat (length buf))) as [L|_]; [lia|].
  destruct (N.eqb_spec (n - N.of_nat (length buf)) 0) as [Z|_]; [lia|].
  rewrite firstn_all. reflexivity.
Qed.

Definition sshift (k : nat) (r : cstep) : cstep :=
  match r with
  | CPart s c => CPart s (k + c)
  | CWhole s c => CWhole s (k + c)
  | CInc s c => CInc s (k + c)
  | CErr e => CErr e
  end.

Lemma sshift_0 r : sshift 0 r = r.
Proof. destruct r; reflexivity. Qed.

(* [r_a], [r_ab]: the step's answers on a and on a ++ b.  An Incomplete answer is the only one
   that more input can change: the step then goes on from the state it left, with the bytes it
   did not take *)
Definition step_resumes (a b : bytes) (r_a r_ab : cstep) : Prop :=
  match r_a with
  | CPart st' c => r_ab = CPart st' c /\ 0 < c /\ c <= length a /\ cwf st'
  | CWhole st' c => r_ab = CWhole st' c /\ c <= length a
  | CInc st' c =>
      c <= length a /\ cwf st' /\ r_ab = sshift c (chunk_step st' (skipn c a ++ b))
  | CErr e => r_ab = CErr e
  end.

Lemma chunk_step_app st a b :
  cwf st -> step_resumes a b (chunk_step st a) (chunk_step st (a ++ b)).
Proof.
  (* the answer CInc st 0: nothing taken, same state *)
  assert (Hsame : cwf st -> step_resumes a b (CInc st 0) (chunk_step st (a ++ b))).
  { intros Hwf. split; [apply Nat.le_0_l|]. split; [exact Hwf|]. symmetry. apply sshift_0. }
  intros Hwf. specialize (Hsame Hwf). unfold cwf in Hwf. unfold chunk_step in *.
  destruct (c_phase st) as [|n| |] eqn:Hph.
  - unfold decode_size in *. destruct (find_crlf a) as [e|] eqn:E; [|exact Hsame].
    pose proof (find_crlf_bound _ _ E) as B.
    rewrite (find_crlf_app _ b _ E), firstn_app_le by lia.
    destruct (negb (utf8_valid (firstn e a))); [reflexivity|].
    destruct (parse_chunk_size (firstn e a)) as [m|]; [|reflexivity].
    split; [reflexivity|]. split; [lia|]. split; [lia|].
    unfold cwf. cbn [set_cphase c_phase]. destruct (N.eqb_spec m 0); [exact I|assumption].
  - clear Hsame. destruct (N.lt_ge_cases (N.of_nat (length a)) n) as [Hs|He].
    + (* a does not hold the whole chunk: does a ++ b? *)
      rewrite (decode_data_short st n a Hs).
      split; [apply le_n|]. split; [unfold cwf; cbn [c_phase]; lia|].
      rewrite skipn_all. unfold chunk_step. cbn [app c_phase].
      destruct (N.lt_ge_cases (N.of_nat (length b)) (n - N.of_nat (length a))) as [Hs2|He2].
      * rewrite !decode_data_short by (rewrite ?app_length; lia). cbn [sshift c_buffer c_trailer].
        rewrite app_length, app_assoc, Nat2N.inj_add, N.sub_add_distr. reflexivity.
      * destruct (app_split (N.to_nat (n - N.of_nat (length a))) b) as (d & r & -> & Hd); [lia|].
        rewrite (decode_data_whole _ _ d r Hd). rewrite (app_assoc a d r).
        rewrite (decode_data_whole st n (a ++ d) r) by (rewrite app_length; lia).
        cbn [sshift c_buffer c_trailer]. rewrite app_length, app_assoc. reflexivity.
    + destruct (app_split (N.to_nat n) a) as (d & r & -> & Hd); [lia|].
      rewrite <- app_assoc, !decode_data_whole by exact Hd.
      split; [reflexivity|]. split; [lia|]. split; [rewrite app_length; lia|exact I].
  - unfold decode_terminator in *. destruct a as [|x [|y t]]; [exact Hsame| |].
    + destruct (N.eqb x CR) eqn:X; [exact Hsame|].
      cbn [app]. destruct b as [|y b']; [rewrite X|rewrite X; cbn [andb]]; reflexivity.
    + cbn [app]. destruct (N.eqb x CR && N.eqb y LF)%bool; [|reflexivity].
      split; [reflexivity|]. split; [lia|]. split; [cbn [length]; lia|exact I].
  - clear Hsame. unfold decode_trailer.
    pose proof (hdr_parse_app None (c_trailer st) a b (or_introl eq_refl)) as HP.
    destruct (hdr_parse None (c_trailer st) a) as [hs c|hs c|e0] eqn:E.
    + destruct HP as [Hc ->]. split; [reflexivity|exact Hc].
    + destruct HP as [Hc ->]. split; [exact Hc|]. split; [exact I|].
      unfold chunk_step, decode_trailer. cbn [c_phase c_buffer c_trailer].
      destruct (hdr_parse None hs (skipn c a ++ b)); reflexivity.
    + rewrite (hdr_parse_error_app None _ a b e0 (or_introl eq_refl) E). reflexivity.
Qed.

Lemma chunk_step_part st a b st' c :
  cwf st -> chunk_step st a = CPart st' c ->
  chunk_step st (a ++ b) = CPart st' c /\ 0 < c /\ c <= length a /\ cwf st'.
Proof. intros Hwf E. pose proof (chunk_step_app st a b Hwf) as H. rewrite E in H. exact H. Qed.

Lemma chunk_loop_step f st buf off :
  chunk_loop (S f) st buf off =
  match chunk_step st buf with
  | CErr e => (st, Reject e)
  | CWhole st' c => (st', Complete (off + c))
  | CInc st' c => (st', Incomplete (off + c))
  | CPart st' c => chunk_loop f st' (skipn c buf) (off + c)
  end.
Proof. reflexivity. Qed.

Lemma chunk_loop_fuel f1 f2 st buf off :
  cwf st -> length buf < f1 -> length buf < f2 ->
  chunk_loop f1 st buf off = chunk_loop f2 st buf off.
Proof.
  revert f2 st buf off. induction f1 as [|f1 IH]; intros f2 st buf off Hwf H1 H2; [lia|].
  destruct f2 as [|f2]; [lia|]. rewrite !chunk_loop_step.
  destruct (chunk_step st buf) as [st' c|st' c|st' c|e] eqn:E; try reflexivity.
  destruct (chunk_step_part st buf [] st' c Hwf E) as [_ [Hp [Hc Hwf']]].
  apply IH; [exact Hwf'| |]; rewrite skipn_length; lia.
Qed.

Lemma chunk_loop_off f st buf off :
  chunk_loop f st buf off = cshift off (chunk_loop f st buf 0).
Proof.
  revert st buf off. induction f as [|f IH]; intros st buf off.
  - cbn. rewrite Nat.add_0_r. reflexivity.
  - rewrite !chunk_loop_step.
    destruct (chunk_step st buf) as [st' c|st' c|st' c|e]; try reflexivity.
    rewrite (IH st' _ (off + c)), (IH st' _ (0 + c)), cshift_cshift. reflexivity.
Qed.

(* ChunkedBody::decode without fuel and offset: one step, then the decoder again on the rest *)
Lemma chunk_decode_step st buf :
  cwf st ->
  chunk_decode st buf =
  match chunk_step st buf with
  | CErr e => (st, Reject e)
  | CWhole st' c => (st', Complete c)
  | CInc st' c => (st', Incomplete c)
  | CPart st' c => cshift c (chunk_decode st' (skipn c buf))
  end.
Proof.
  intros Hwf. unfold chunk_decode. rewrite chunk_loop_step.
  destruct (chunk_step st buf) as [st' c|st' c|st' c|e] eqn:E; try reflexivity.
  destruct (chunk_step_part st buf [] st' c Hwf E) as [_ [Hp [Hc Hwf']]].
  rewrite chunk_loop_off. f_equal.
  apply chunk_loop_fuel; [exact Hwf'| |]; rewrite skipn_length; lia.
Qed.

(* a rejection stays the same rejection (chunk_step_app); the statement asks only that it stays
   one, which is all that delivery independence compares *)
Theorem chunk_decode_app st a b :
  cwf st ->
  match chunk_decode st a with
  | (st1, Complete c) => c <= length a /\ chunk_decode st (a ++ b) = (st1, Complete c)
  | (st1, Incomplete c) =>
      c <= length a /\ cwf st1 /\
      coeq (chunk_decode st (a ++ b)) (cshift c (chunk_decode st1 (skipn c a ++ b)))
  | (_, Reject e) => exists st' e', chunk_decode st (a ++ b) = (st', Reject e')
  end.
Proof.
  remember (length a) as n eqn:Hn. revert st a Hn.
  induction n as [n IH] using lt_wf_ind. intros st a -> Hwf.
  rewrite (chunk_decode_step st a Hwf), (chunk_decode_step st (a ++ b) Hwf).
  pose proof (chunk_step_app st a b Hwf) as H.
  destruct (chunk_step st a) as [st' c|st' c|st' c|e].
  - destruct H as (-> & Hp & Hc & Hwf'). rewrite skipn_app_le by exact Hc.
    assert (Hl : length (skipn c a) < length a) by (rewrite skipn_length; lia).
    specialize (IH _ Hl st' (skipn c a) eq_refl Hwf'). rewrite skipn_length in IH.
    destruct (chunk_decode st' (skipn c a)) as [st1 [k|k|e]]; cbn [cshift].
    + destruct IH as [Hk ->]. split; [lia|reflexivity].
    + destruct IH as (Hk & Hwf1 & IH). split; [lia|]. split; [exact Hwf1|].
      apply (coeq_cshift c) in IH.
      rewrite cshift_cshift, skipn_skipn' in IH. exact IH.
    + destruct IH as (st2 & e' & ->). cbn [cshift]. eauto.
  - destruct H as [-> Hc]. split; [exact Hc|reflexivity].
  - (* the step goes on from st' *)
    destruct H as (Hc & Hwf' & ->). split; [exact Hc|]. split; [exact Hwf'|].
    rewrite (chunk_decode_step st' _ Hwf').
    destruct (chunk_step st' (skipn c a ++ b)) as [s k|s k|s k|e]; cbn [sshift cshift coeq];
      try reflexivity.
    rewrite cshift_cshift, <- (skipn_app_le c a b Hc), skipn_skipn'.
    apply coeq_refl.
  - rewrite H. eauto.
Qed.
